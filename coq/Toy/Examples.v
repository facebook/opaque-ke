(* Non-vacuity: the hypotheses of the property theorems are met by concrete, reachable states of the toy
   suite, and their conclusions are observed by evaluation inside Coq (vm_compute).  These are TESTS of
   the statements, not part of any proof. *)
From Coq Require Import List NArith ZArith Lia Bool.
From Coq Require Import Init.Byte.
From OKE Require Import Bytes Suite Voprf Messages Envelope Opaque Api.
From OKE Require Import Laws Honest Bad KeySeparation WrongCredential AcceptedLogin World WorldCrash CrashInv FreshRanges HonestWorld WrongPassword WorldInv Toy SamplerConcrete.
Import ListNotations.

Definition tape0 : bytes := map (fun i => n2b (N.of_nat (i * 37 + 11))) (seq 0 300).
Definition tape0_val := Eval vm_compute in tape0.
Lemma tape0_eq : tape0 = tape0_val.
Proof.
  unfold tape0.
  (* in unary, i * 37 + 11 costs the kernel's reduction thousands of steps per entry *)
  rewrite (map_ext _ (fun i => n2b (N.of_nat i * 37 + 11))) by (intros; now rewrite Nat2N.inj_add, Nat2N.inj_mul).
  vm_compute. reflexivity.
Qed.
Definition pw0 : bytes := [x70; x61; x73; x73].
Definition cred0 : bytes := [x75; x31].
Definition ids0 : Identifiers := {| id_client := Some [x63]; id_server := None |}.

(* the whole honest flow, in memory, evaluated in Coq: it succeeds and the keys agree *)
Definition flow0 : response := do_flow TOY tape0 pw0 cred0 (Some [x78]) (Some [x63]) None KsNone.
(* positions in do_flow's answer: 10, 11 the two session keys; 4, 12 the export keys and 5, 13 the server's
   public key, at registration and at login *)
Definition flow_ok (r : response) : bool :=
  match r with
  | ROk l =>
      match nth 10 l (TN 0), nth 11 l (TN 1), nth 4 l (TN 0), nth 12 l (TN 1), nth 5 l (TN 0), nth 13 l (TN 1) with
      | TB a, TB b, TB c, TB d, TB e, TB f => bytes_eqb a b && bytes_eqb c d && bytes_eqb e f && negb (bytes_eqb a c)
      | _, _, _, _, _, _ => false
      end
  | _ => false
  end.
Example toy_honest_flow_agrees : flow_ok flow0 = true.
Proof. unfold flow0. rewrite tape0_eq. vm_compute. reflexivity. Qed.

(* the premises of C01 / C06 / C16, step by step, on the same tape *)
Definition the {A} (d : A) (r : result A) : A := match r with Ok a => a | Err _ => d end.
Definition kp0 : KeyPair Z Z := {| kp_pk := 0%Z; kp_sk := 0%Z |}.
Definition d_setup : ServerSetup Z Z Z * bytes := ({| ss_oprf_seed := []; ss_keypair := kp0; ss_fake_keypair := kp0 |}, []).
Definition d_env : Envelope := {| env_internal := true; env_nonce := []; env_hmac := [] |}.
Definition d_upload : RegistrationUpload Z := {| ru_envelope := d_env; ru_masking_key := []; ru_client_s_pk := 0%Z |}.
Definition d_ke1 : Ke1Message Z := {| k1_nonce := []; k1_client_e_pk := 0%Z |}.
Definition d_rq : CredentialRequest Z Z := {| cq_blinded := 0%Z; cq_ke1 := d_ke1 |}.
Definition d_clog : ClientLogin Z Z Z Z := {| cl_blind := 0%Z; cl_ke1_state := {| k1s_client_e_sk := 0%Z; k1s_nonce := [] |}; cl_request := d_rq |}.
Definition d_slog : ServerLogin := {| sl_km3 := []; sl_hashed_transcript := []; sl_session_key := [] |}.
Definition d_resp : CredentialResponse Z Z :=
  {| cr_eval := 0%Z; cr_masking_nonce := []; cr_masked := {| mr_nonce := []; mr_hash := []; mr_pk := [] |};
     cr_ke2 := {| k2_nonce := []; k2_server_e_pk := 0%Z; k2_mac := [] |} |}.

Definition r0 := the d_setup (server_setup_new TOY tape0).
Definition setup0 := fst r0.
Definition r1 := the ({| crs_blind := 0%Z; crs_blinded := 0%Z |}, {| rq_blinded := 0%Z |}, []) (client_registration_start TOY (snd r0) pw0).
Definition r2 := the {| rr_eval := 0%Z; rr_server_s_pk := 0%Z |} (server_registration_start TOY setup0 (snd (fst r1)) cred0).
Definition r3 := the (d_upload, [], 0%Z, []) (client_registration_finish TOY (fst (fst r1)) (snd r1) pw0 r2 ids0 None).
Definition upload0 := fst (fst (fst r3)).
Definition r4 := the (d_clog, d_rq, []) (client_login_start TOY (snd r3) pw0).
Definition r5 := the (d_slog, d_resp, [], ([], [])) 
  (server_login_start TOY (private_key_ops (ke TOY)) (snd r4) setup0 (Some (server_registration_finish upload0)) (snd (fst r4)) cred0 (Some [x78]) ids0).

(* Every stage is evaluated once, here: [rK_val] is the value of [rK], [rK_ok] runs that one step from the values of
   the stages before it, and the tests below rewrite with [rK_eq] before they evaluate.  (Within one proof the kernel's
   reduction evaluates a constant once, however often it is mentioned, but it keeps nothing from one proof to the
   next: a test that leaves [r4] folded replays the flow from the tape.)  The worlds further down ([w1], the runs of
   [hist2a] and [hist2]) are treated the same way, each starting from the one before. *)
Lemma the_Ok {A} {d v : A} {r} : r = Ok v -> the d r = v.
Proof. now intros ->. Qed.

Definition r0_val := Eval vm_compute in r0.
Lemma r0_ok : server_setup_new TOY tape0 = Ok r0_val.
Proof. rewrite tape0_eq. vm_compute. reflexivity. Qed.
Lemma r0_eq : r0 = r0_val. Proof. exact (the_Ok r0_ok). Qed.

Definition r1_val := Eval vm_compute in r1.
Lemma r1_ok : client_registration_start TOY (snd r0) pw0 = Ok r1_val.
Proof. rewrite r0_eq. vm_compute. reflexivity. Qed.
Lemma r1_eq : r1 = r1_val. Proof. exact (the_Ok r1_ok). Qed.

Definition r2_val := Eval vm_compute in r2.
Lemma r2_ok : server_registration_start TOY setup0 (snd (fst r1)) cred0 = Ok r2_val.
Proof. unfold setup0. rewrite r0_eq, r1_eq. vm_compute. reflexivity. Qed.
Lemma r2_eq : r2 = r2_val. Proof. exact (the_Ok r2_ok). Qed.

Definition r3_val := Eval vm_compute in r3.
Lemma r3_ok : client_registration_finish TOY (fst (fst r1)) (snd r1) pw0 r2 ids0 None = Ok r3_val.
Proof. rewrite r1_eq, r2_eq. vm_compute. reflexivity. Qed.
Lemma r3_eq : r3 = r3_val. Proof. exact (the_Ok r3_ok). Qed.

Definition r4_val := Eval vm_compute in r4.
Lemma r4_ok : client_login_start TOY (snd r3) pw0 = Ok r4_val.
Proof. rewrite r3_eq. vm_compute. reflexivity. Qed.
Lemma r4_eq : r4 = r4_val. Proof. exact (the_Ok r4_ok). Qed.

Definition r5_val := Eval vm_compute in r5.
Lemma r5_ok :
  server_login_start TOY (private_key_ops (ke TOY)) (snd r4) setup0 (Some (server_registration_finish upload0)) (snd (fst r4)) cred0 (Some [x78]) ids0
    = Ok r5_val.
Proof. unfold setup0, upload0. rewrite r0_eq, r3_eq, r4_eq. vm_compute. reflexivity. Qed.
Lemma r5_eq : r5 = r5_val. Proof. exact (the_Ok r5_ok). Qed.

Example toy_premises_of_C01 :
    ve TOY (o_h2g (oprf TOY) pw0 (dst_hash_to_group (oprf TOY))) /\
    server_setup_new TOY tape0 = Ok (setup0, snd r0) /\
    client_registration_start TOY (snd r0) pw0 = Ok (fst (fst r1), snd (fst r1), snd r1) /\
    server_registration_start TOY setup0 (snd (fst r1)) cred0 = Ok r2 /\
    client_registration_finish TOY (fst (fst r1)) (snd r1) pw0 r2 ids0 None = Ok (upload0, snd (fst (fst r3)), snd (fst r3), snd r3) /\
    client_login_start TOY (snd r3) pw0 = Ok (fst (fst r4), snd (fst r4), snd r4) /\
    server_login_start TOY (private_key_ops (ke TOY)) (snd r4) setup0 (Some (server_registration_finish upload0)) (snd (fst r4)) cred0 (Some [x78]) ids0
      = Ok (fst (fst (fst r5)), snd (fst (fst r5)), snd (fst r5), snd r5) /\
    o_eqb (oprf TOY) (cq_blinded (snd (fst r4))) (cr_eval (snd (fst (fst r5)))) = false.
Proof.
  split. { apply toy_h2g_valid. }
  split. { unfold setup0. rewrite r0_eq. exact r0_ok. }
  split. { rewrite r1_eq. exact r1_ok. }
  split. { rewrite r2_eq. exact r2_ok. }
  split. { unfold upload0. rewrite r3_eq. exact r3_ok. }
  split. { rewrite r4_eq. exact r4_ok. }
  split. { rewrite r5_eq. exact r5_ok. }
  rewrite r4_eq, r5_eq. vm_compute. reflexivity.
Qed.

(* hence the conclusion of C01 holds for it - obtained from the THEOREM, with every law discharged *)
Example toy_C01_conclusion :
  exists ke3 sk dbg',
    client_login_finish TOY (fst (fst r4)) pw0 (snd (fst (fst r5))) (Some [x78]) ids0 None
      = Ok (ke3, sk, snd (fst (fst r3)), snd (fst r3), dbg') /\
    server_login_finish TOY (fst (fst (fst r5))) ke3 = Ok sk /\
    snd (fst r3) = kp_pk (ss_keypair setup0).
Proof.
  destruct toy_premises_of_C01 as (HP & H0 & H1 & H2 & H3 & H4 & H5 & H6).
  destruct (honest_login_agrees TOY toy_hash_laws toy_group_laws _ _ _ _ _ _ _ _ _ _ _ _ _ _ _ _ _ _ _ _ _ _ _
              HP H0 H1 H2 H3 H4 H5 H6) as (ke3 & sk & dbg' & Hc & Hs & Hk & _).
  exists ke3, sk, dbg'. auto.
Qed.

(* C06 on the toy suite: an impostor setup with the same seed and another static key; evaluated, the client's
   final step is the rejection (the disjunct of substituted_key_rejected that needs no collision) *)
Definition setup_imp : ServerSetup Z Z Z :=
  {| ss_oprf_seed := ss_oprf_seed setup0; ss_keypair := {| kp_pk := k_pub (ke TOY) 7%Z; kp_sk := 7%Z |};
     ss_fake_keypair := ss_fake_keypair setup0 |}.
Definition r5i := the (d_slog, d_resp, [], ([], []))
  (server_login_start TOY (private_key_ops (ke TOY)) (snd r4) setup_imp (Some (server_registration_finish upload0)) (snd (fst r4)) cred0 (Some [x78]) ids0).
Example toy_C06_impostor_rejected :
  kp_sk (ss_keypair setup0) <> 7%Z /\
  client_login_finish TOY (fst (fst r4)) pw0 (snd (fst (fst r5i))) (Some [x78]) ids0 None = Err EInvalidLogin.
Proof.
  split.
  - unfold setup0. rewrite r0_eq. vm_compute. discriminate.
  - unfold r5i, setup_imp, setup0, upload0. rewrite r0_eq, r3_eq, r4_eq. vm_compute. reflexivity.
Qed.

(* C03 on a concrete pending state: the expected MAC is accepted, the all-zero MAC is not *)
Definition st0 : ServerLogin := {| sl_km3 := [x01; x02; x03; x04]; sl_hashed_transcript := [x05; x06; x07; x08]; sl_session_key := [x09; x0a; x0b; x0c] |}.
Example toy_C03 :
  server_login_finish TOY st0 {| cf_mac := toy_hmac [x01; x02; x03; x04] [x05; x06; x07; x08] |} = Ok [x09; x0a; x0b; x0c] /\
  server_login_finish TOY st0 {| cf_mac := [x00; x00; x00; x00] |} = Err EInvalidLogin.
Proof. split; vm_compute; reflexivity. Qed.

(* C05 / C14 on the toy suite: the server evaluates the same request under ANOTHER credential identifier (same setup,
   same record, same password): the server step succeeds and the client's final step fails *)
Definition cred1 : bytes := [x75; x32].
Definition r5c := the (d_slog, d_resp, [], ([], []))
  (server_login_start TOY (private_key_ops (ke TOY)) (snd r4) setup0 (Some (server_registration_finish upload0)) (snd (fst r4)) cred1 (Some [x78]) ids0).
Definition r5c_val := Eval vm_compute in r5c.
Lemma r5c_ok :
  server_login_start TOY (private_key_ops (ke TOY)) (snd r4) setup0 (Some (server_registration_finish upload0)) (snd (fst r4)) cred1 (Some [x78]) ids0
    = Ok r5c_val.
Proof. unfold setup0, upload0. rewrite r0_eq, r3_eq, r4_eq. vm_compute. reflexivity. Qed.
Lemma r5c_eq : r5c = r5c_val. Proof. exact (the_Ok r5c_ok). Qed.
Example toy_C05_other_credential_identifier_rejected :
  server_login_start TOY (private_key_ops (ke TOY)) (snd r4) setup0 (Some (server_registration_finish upload0)) (snd (fst r4)) cred1 (Some [x78]) ids0
    = Ok (fst (fst (fst r5c)), snd (fst (fst r5c)), snd (fst r5c), snd r5c) /\
  client_login_finish TOY (fst (fst r4)) pw0 (snd (fst (fst r5c))) (Some [x78]) ids0 None = Err EInvalidLogin.
Proof. rewrite r5c_eq. split; [exact r5c_ok | rewrite r4_eq; vm_compute; reflexivity]. Qed.

(* ... as the theorem says, with every law (the free scalar action included) discharged for the toy suite: had the
   client accepted, a collision would have been exhibited *)
Example toy_C05_theorem_instance :
  forall out, client_login_finish TOY (fst (fst r4)) pw0 (snd (fst (fst r5c))) (Some [x78]) ids0 None = Ok out ->
              BadS TOY \/ BadOprfDerive TOY.
Proof.
  intros out Hacc.
  destruct toy_premises_of_C01 as (HP & H0 & H1 & H2 & H3 & H4 & _ & _).
  destruct toy_C05_other_credential_identifier_rejected as [H5 _].
  refine (mismatched_login_never_accepted TOY toy_hash_laws toy_group_laws Z.eq_dec toy_action_free
            _ _ _ _ _ _ _ _ _ _ _ _ _ _ _ _ _ _ _ _ _ _ _ _ _ _ HP HP H0 H1 H2 H3 _ H4 H5 Hacc).
  right. vm_compute. discriminate.
Qed.

(* C13 over histories on the toy suite: an honest login with a crash and restore of every party between all steps
   reaches the same world as the uninterrupted one, and that world holds one completed session on each side with
   equal keys (evaluated; then the same equality from the theorem) *)
Definition fin0 : CredentialFinalization :=
  match client_login_finish TOY (fst (fst r4)) pw0 (snd (fst (fst r5))) (Some [x78]) ids0 None with
  | Ok (f, _, _, _, _) => f | Err _ => {| cf_mac := [] |} end.
Definition fin0_val := Eval vm_compute in fin0.
Lemma fin0_eq : fin0 = fin0_val. Proof. unfold fin0. rewrite r4_eq, r5_eq. vm_compute. reflexivity. Qed.
Definition hist0 : list (cop (E := Z) (Pk := Z)) :=
  [ CReloadSetup; CStep (OClientStart pw0); CReloadClient 0; CReloadSetup;
    CStep (OServerStart (Some (server_registration_finish upload0)) cred0 (Some [x78]) ids0 (snd (fst r4)));
    CReloadServer 0; CReloadClient 0; CReloadServer 7;
    CStep (OClientFinish 0 (snd (fst (fst r5))) (Some [x78]) ids0); CReloadServer 0; CReloadSetup;
    CStep (OServerFinish 0 fin0); CReloadClient 0 ].
Definition w0 := @init Z Z Z Z setup0 (snd r3).
Definition keys_of (w : World (E := Z) (Sc := Z) (Pk := Z) (Sk := Z)) : list bytes * list bytes :=
  (map cd_key (w_cdone w), map sd_key (w_sdone w)).
Example toy_C13_history_with_crashes :
  match crun TOY w0 hist0 with
  | Ok w => keys_of w = keys_of (run TOY w0 (erase hist0)) /\
            match keys_of w with ([k1], [k2]) => bytes_eqb k1 k2 = true | _ => False end
  | Err _ => False
  end.
Proof.
  unfold w0, hist0, setup0, upload0. rewrite fin0_eq, r0_eq, r3_eq, r4_eq, r5_eq.
  vm_compute. split; reflexivity.
Qed.

Example toy_C13_theorem_instance : crun TOY w0 hist0 = Ok (run TOY w0 (erase hist0)).
Proof.
  destruct toy_premises_of_C01 as (_ & H0 & _).
  apply (crashes_change_nothing TOY toy_hash_laws toy_group_laws tape0 setup0 (snd r0) (snd r3) hist0 H0).
  intros pw _. apply toy_h2g_valid.
Qed.

(* C08 / C17 over histories on the toy suite: three login attempts for one request - no record, the real record, no
   record again - on one tape: the world has three server sessions, and the theorem (with the sampler law, proved for the
   toy suite in Theory/SamplerConcrete.v) places the random fields of the first and of the third attempt in disjoint ranges of that tape *)
Definition hist1 : list (op (E := Z) (Pk := Z)) :=
  [ OClientStart pw0;
    OServerStart None cred0 (Some [x78]) ids0 (snd (fst r4));
    OServerStart (Some (server_registration_finish upload0)) cred0 (Some [x78]) ids0 (snd (fst r4));
    OServerStart None cred0 (Some [x78]) ids0 (snd (fst r4)) ].
Definition w1 := run TOY w0 hist1.
Definition w1_val := Eval vm_compute in w1.
Lemma w1_eq : run TOY (init setup0 (snd r3)) hist1 = w1_val.
Proof. unfold hist1, setup0, upload0. rewrite r0_eq, r3_eq, r4_eq. vm_compute. reflexivity. Qed.
Example toy_three_attempts : length (w_srv w1) = 3 /\
  match w_srv w1 with
  | [a; b; c] => negb (bytes_eqb (cr_masking_nonce (sv_resp a)) (cr_masking_nonce (sv_resp c))) &&
                 negb (bytes_eqb (k2_nonce (cr_ke2 (sv_resp a))) (k2_nonce (cr_ke2 (sv_resp c)))) &&
                 negb (bytes_eqb (mr_nonce (cr_masked (sv_resp a)) ++ mr_hash (cr_masked (sv_resp a)) ++ mr_pk (cr_masked (sv_resp a)))
                                 (mr_nonce (cr_masked (sv_resp c)) ++ mr_hash (cr_masked (sv_resp c)) ++ mr_pk (cr_masked (sv_resp c)))) = true
  | _ => False
  end.
Proof. unfold w1, w0. rewrite w1_eq. vm_compute. split; reflexivity. Qed.

Definition d_cli : CliSession (E := Z) (Sc := Z) (Pk := Z) (Sk := Z) := {| cs_pw := []; cs_state := d_clog |}.
Definition d_srv : SrvSession (E := Z) (Pk := Z) :=
  {| sv_file := None; sv_cred := []; sv_ctx := None; sv_ids := ids0; sv_rq := d_rq; sv_state := d_slog; sv_resp := d_resp |}.
Definition srv0 := nth 0 (w_srv w1) d_srv.
Definition srv2 := nth 2 (w_srv w1) d_srv.

Example toy_attempts_theorem_instance :
  exists tj fj ej mid fk ek restk,
    tj = fj ++ cr_masking_nonce (sv_resp srv0) ++ ej ++ k2_nonce (cr_ke2 (sv_resp srv0)) ++ mid ++
         fk ++ cr_masking_nonce (sv_resp srv2) ++ ek ++ k2_nonce (cr_ke2 (sv_resp srv2)) ++ restk /\
    suffix tj (snd r3).
Proof.
  destruct (attempts_draw_from_disjoint_ranges TOY sampler_prefix_toy setup0 (snd r3) hist1 0 2 srv0 srv2 ltac:(lia))
    as (tj & fj & nj & ej & mj & mid & fk & nk & ek & mk & restk & Ht & -> & -> & -> & -> & _ & _ & _ & _ & _ & _ & _ & _ & _ & _ & Hs).
  1-2: unfold srv0, srv2, w1, w0; rewrite w1_eq; reflexivity.
  exists tj, fj, ej, mid, fk, ek, restk. split; assumption.
Qed.

(* C15 on the toy suite: registered under the default stretching function (the identity), login with an instance that
   reverses its input: the server step is the honest one (r5), the client's final step fails; and the theorem, with
   every law discharged, says an acceptance would have exhibited a collision or an agreement of the two functions *)
Definition rev_ksf : ksf_fn := fun y => Some (rev y).
Example toy_C15_other_stretching_rejected :
  client_login_finish TOY (fst (fst r4)) pw0 (snd (fst (fst r5))) (Some [x78]) ids0 (Some rev_ksf) = Err EInvalidLogin.
Proof. rewrite r4_eq, r5_eq. vm_compute. reflexivity. Qed.

Example toy_C15_theorem_instance :
  forall out, client_login_finish TOY (fst (fst r4)) pw0 (snd (fst (fst r5))) (Some [x78]) ids0 (Some rev_ksf) = Ok out ->
    (exists y z, apply_ksf TOY None y = Some z /\ apply_ksf TOY (Some rev_ksf) y = Some z) \/ BadS TOY \/ BadOprfDerive TOY.
Proof.
  intros out Hacc.
  destruct toy_premises_of_C01 as (HP & H0 & H1 & H2 & H3 & H4 & H5 & _).
  destruct (accepted_login_used_the_registrations_secrets TOY toy_hash_laws toy_group_laws Z.eq_dec toy_action_free
              _ _ _ _ _ _ _ _ _ _ _ _ _ _ _ _ _ _ _ _ _ _ _ _ _ _ _ HP HP H0 H1 H2 H3 H4 H5 Hacc)
    as [(_ & _ & y & z & Ha & Hb & _)|HB]; [left; eauto | right; exact HB].
Qed.

(* C01 over histories on the toy suite: in the world of the three attempts above, the honest delivery (client session 0,
   server session 1 - the one started on the real record) completes; from the theorem, every law discharged.
   (Each premise about the world is a closed computation, read off the evaluated world; every string is a good password
   of the toy suite: Toy.toy_h2g_valid.) *)
Definition cli0 := nth 0 (w_cli w1) d_cli.
Definition srv1 := nth 1 (w_srv w1) d_srv.
Lemma cli0_eq : cli0 = nth 0 (w_cli w1_val) d_cli. Proof. unfold cli0, w1, w0. now rewrite w1_eq. Qed.
Lemma srv1_eq : srv1 = nth 1 (w_srv w1_val) d_srv. Proof. unfold srv1, w1, w0. now rewrite w1_eq. Qed.
Lemma toy_hw_file : sv_file srv1 = Some (server_registration_finish upload0).
Proof. unfold upload0. rewrite srv1_eq, r3_eq. reflexivity. Qed.

Example toy_C01_history_instance :
  exists fin key dbg,
    client_login_finish TOY (cs_state cli0) pw0 (sv_resp srv1) (sv_ctx srv1) ids0 None = Ok (fin, key, snd (fst (fst r3)), snd (fst r3), dbg) /\
    server_login_finish TOY (sv_state srv1) fin = Ok key.
Proof.
  destruct toy_premises_of_C01 as (_ & H0 & H1 & H2 & H3 & _).
  refine (honest_delivery_completes TOY toy_hash_laws toy_group_laws tape0 setup0 (snd r0) (snd r3) hist1
            _ _ _ _ _ _ _ _ _ _ _ _ _ 0 cli0 1 srv1 H0 (fun pw' _ => toy_h2g_valid pw' _) H1 H2 H3 _ _ _ toy_hw_file _ _ _ _);
    rewrite ?w1_eq, ?srv1_eq, ?cli0_eq; reflexivity.
Qed.

(* C02 on the toy suite: the same registration, a login with ANOTHER password against the honest server on the
   registration's record: the client's final step fails with the invalid-login error (evaluated); and the theorem,
   every law discharged, says an acceptance would have exhibited a collision *)
Definition pw_other : bytes := [x70; x61; x73; x74].
Definition r4w := the (d_clog, d_rq, []) (client_login_start TOY (snd r3) pw_other).
Definition r5w := the (d_slog, d_resp, [], ([], []))
  (server_login_start TOY (private_key_ops (ke TOY)) (snd r4w) setup0 (Some (server_registration_finish upload0)) (snd (fst r4w)) cred0 (Some [x78]) ids0).
Definition r4w_val := Eval vm_compute in r4w.
Lemma r4w_ok : client_login_start TOY (snd r3) pw_other = Ok r4w_val.
Proof. rewrite r3_eq. vm_compute. reflexivity. Qed.
Lemma r4w_eq : r4w = r4w_val. Proof. exact (the_Ok r4w_ok). Qed.
Definition r5w_val := Eval vm_compute in r5w.
Lemma r5w_ok :
  server_login_start TOY (private_key_ops (ke TOY)) (snd r4w) setup0 (Some (server_registration_finish upload0)) (snd (fst r4w)) cred0 (Some [x78]) ids0
    = Ok r5w_val.
Proof. unfold setup0, upload0. rewrite r0_eq, r3_eq, r4w_eq. vm_compute. reflexivity. Qed.
Lemma r5w_eq : r5w = r5w_val. Proof. exact (the_Ok r5w_ok). Qed.

Lemma toy_C02_start : client_login_start TOY (snd r3) pw_other = Ok (fst (fst r4w), snd (fst r4w), snd r4w).
Proof. rewrite r4w_eq. exact r4w_ok. Qed.
Lemma toy_C02_server :
  server_login_start TOY (private_key_ops (ke TOY)) (snd r4w) setup0 (Some (server_registration_finish upload0)) (snd (fst r4w)) cred0 (Some [x78]) ids0
    = Ok (fst (fst (fst r5w)), snd (fst (fst r5w)), snd (fst r5w), snd r5w).
Proof. rewrite r5w_eq. exact r5w_ok. Qed.
Example toy_C02_wrong_password_rejected :
  pw_other <> pw0 /\ client_login_finish TOY (fst (fst r4w)) pw_other (snd (fst (fst r5w))) (Some [x78]) ids0 None = Err EInvalidLogin.
Proof. split; [discriminate | rewrite r4w_eq, r5w_eq; vm_compute; reflexivity]. Qed.
Example toy_C02_theorem_instance :
  forall out, client_login_finish TOY (fst (fst r4w)) pw_other (snd (fst (fst r5w))) (Some [x78]) ids0 None = Ok out -> BadS TOY.
Proof.
  intros out Hacc.
  destruct toy_premises_of_C01 as (HP & H0 & H1 & H2 & H3 & _).
  exact (wrong_password_never_accepted TOY toy_hash_laws toy_group_laws Z.eq_dec
           _ _ _ _ _ _ _ _ _ _ _ _ _ _ _ _ _ _ _ _ _ _ _ _ _ HP (toy_h2g_valid _ _) H0 H1 H2 H3
           (proj1 toy_C02_wrong_password_rejected) toy_C02_start toy_C02_server Hacc).
Qed.

(* C07 on the toy suite: the world of the three attempts, then the adversary delivers the real record's response
   (server session 1) to client session 0 and that client's finalization to server session 1: one client and one
   server completion; the theorems on every reachable world, every law discharged, then give the matching
   conversation (or a collision of the toy hash) and the accepted finalization's MAC *)
Definition d_cdone : CliDone (E := Z) (Pk := Z) :=
  {| cd_client := 0; cd_resp := d_resp; cd_ctx := None; cd_ids := ids0; cd_fin := {| cf_mac := [] |}; cd_key := []; cd_export := []; cd_spk := 0%Z |}.
Definition hist2a := hist1 ++ [OClientFinish 0 (sv_resp srv1) (Some [x78]) ids0].
Definition w2a_val := Eval vm_compute in run TOY w0 hist2a.
Lemma w2a_eq : run TOY (init setup0 (snd r3)) hist2a = w2a_val.
Proof. unfold hist2a. rewrite run_app, w1_eq, srv1_eq. vm_compute. reflexivity. Qed.
Definition done0 := nth 0 (w_cdone (run TOY (init setup0 (snd r3)) hist2a)) d_cdone.
Lemma done0_eq : done0 = nth 0 (w_cdone w2a_val) d_cdone. Proof. unfold done0. now rewrite w2a_eq. Qed.
Definition hist2 := hist2a ++ [OServerFinish 1 (cd_fin done0)].
Definition d_sdone : SrvDone := {| sd_server := 0; sd_fin := {| cf_mac := [] |}; sd_key := [] |}.
Definition w2_val := Eval vm_compute in run TOY w0 hist2.
Lemma w2_eq : run TOY (init setup0 (snd r3)) hist2 = w2_val.
Proof. unfold hist2. rewrite run_app, w2a_eq, done0_eq. vm_compute. reflexivity. Qed.
Definition sdone0 := nth 0 (w_sdone (run TOY (init setup0 (snd r3)) hist2)) d_sdone.
Lemma toy_C07_cd : In done0 (w_cdone (run TOY (init setup0 (snd r3)) hist2)).
Proof. rewrite w2_eq, done0_eq. left. reflexivity. Qed.
Lemma toy_C07_srv : In srv1 (w_srv (run TOY (init setup0 (snd r3)) hist2)).
Proof. rewrite w2_eq, srv1_eq. right. left. reflexivity. Qed.
Lemma toy_C07_mac : k2_mac (cr_ke2 (cd_resp done0)) = k2_mac (cr_ke2 (sv_resp srv1)).
Proof. rewrite done0_eq, srv1_eq. reflexivity. Qed.
Lemma toy_C07_cli : nth_error (w_cli (run TOY (init setup0 (snd r3)) hist2)) (cd_client done0) = Some cli0.
Proof. rewrite w2_eq, done0_eq, cli0_eq. reflexivity. Qed.
Example toy_C07_completions :
  length (w_cdone (run TOY (init setup0 (snd r3)) hist2)) = 1 /\ length (w_sdone (run TOY (init setup0 (snd r3)) hist2)) = 1 /\ cd_key done0 = sd_key sdone0 /\ cd_key done0 <> [].
Proof. unfold sdone0. rewrite w2_eq, done0_eq. vm_compute. repeat split; discriminate. Qed.
Example toy_C07_matched_instance :
  (cd_key done0 = sl_session_key (sv_state srv1) /\  match cd_ctx done0 with Some x => x | None => [] end = match sv_ctx srv1 with Some x => x | None => [] end)
  \/ Bad (hash TOY).
Proof.
  destruct (matched_conversations TOY toy_hash_laws toy_group_laws setup0 (snd r3) hist2 done0 srv1 _
              toy_C07_cd toy_C07_srv toy_hw_file toy_C07_mac cli0 toy_C07_cli) as [(_ & _ & _ & _ & Hc & Hk)|HB].
  1-3: rewrite ?done0_eq, ?cli0_eq, srv1_eq; reflexivity.
  - left. split; assumption.
  - right. exact HB.
Qed.
Example toy_C07_server_completion_instance :
  exists s, nth_error (w_srv (run TOY (init setup0 (snd r3)) hist2)) (sd_server sdone0) = Some s /\   cf_mac (sd_fin sdone0) = h_hmac (hash TOY) (sl_km3 (sv_state s)) (sl_hashed_transcript (sv_state s)) /\   sd_key sdone0 = sl_session_key (sv_state s).
Proof. apply server_completions. unfold sdone0. rewrite w2_eq. left. reflexivity. Qed.
