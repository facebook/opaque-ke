(* A toy suite - the multiplicative group of Z_251, a 4-byte checksum "hash" - for which
   EVERY law the generic theorems assume (HashLaws, GroupLaws, CodecLaws) is PROVED, and on which
   the honest flow is evaluated inside Coq.  Purpose: non-vacuity.  The hypotheses of the
   generic theorems are jointly satisfiable, reachable states meet them, and the theorems'
   conclusions can be observed by computation.  (Nothing here is cryptographically meaningful.) *)
From Coq Require Import List ZArith Lia Bool.
From Coq Require Import Init.Byte.
From OKE Require Import Bytes Suite Field FieldLemmas BytesLemmas Codecs Laws.
Import ListNotations.
Local Open Scope Z_scope.

Definition q : Z := 251.

Definition toy_sum (m : bytes) : N := fold_left (fun acc x => (acc * 31 + b2n x + 7) mod 4294967296)%N m 5381%N.
Definition toy_hash (m : bytes) : bytes := be_bytes 4 (toy_sum m).
Definition toy_hmac (k m : bytes) : bytes := toy_hash (k ++ [x2a] ++ m ++ k).
Definition TOYHASH : HashOps := {| h_hash := toy_hash; h_len := 4; h_block := 8; h_hmac := toy_hmac |}.

Theorem toy_hash_laws : HashLaws TOYHASH.
Proof.
  constructor; cbn; intros; try lia; unfold toy_hmac, toy_hash; apply be_bytes_length.
Qed.

Definition hz (m : bytes) : Z := Z.of_N (toy_sum m).
Definition z2byte (z : Z) : bytes := [n2b (Z.to_N z)].
Definition byte2z (b : bytes) (lo hi : Z) : option Z :=
  match b with
  | [x] => let v := Z.of_N (b2n x) in if (lo <? v) && (v <? hi) then Some v else None
  | _ => None
  end.

(* without this, the [cbn] steps of the proofs below unfold fpow's 640 units of fuel around an exponent that is a variable,
   and do not come back *)
Local Arguments fpow : simpl never.

Definition toy_oprf : OprfOps Z Z := {|
  o_Noe := 1%nat; o_Nok := 1%nat;
  o_ser_e := z2byte; o_deser_e := fun b => byte2z b 0 q;
  o_ser_s := z2byte; o_deser_s := fun b => byte2z b 0 q;
  o_mul := fun P s => (P * s) mod q;
  o_inv := fun s => fpow q s (q - 2);
  o_eqb := Z.eqb;
  o_identity := 0;
  o_is_zero := fun s => s mod q =? 0;
  o_h2g := fun m d => 1 + hz (m ++ d) mod (q - 1);
  o_h2s := fun m d => 1 + hz (m ++ d) mod (q - 1);
  o_random_scalar := fun t => match t with x :: t' => Some (1 + Z.of_N (b2n x) mod (q - 1), t') | [] => None end;
  o_id := [x74; x6f; x79];
|}.

Definition gen : Z := 6.
Definition toy_ke : KeOps Z Z := {|
  k_Npk := 1%nat; k_Nsk := 1%nat;
  k_ser_pk := z2byte; k_deser_pk := fun b => byte2z b 0 q;
  k_ser_sk := z2byte; k_deser_sk := fun b => byte2z b 0 41;
  k_pub := fun s => fpow q gen s;
  k_dh := fun pk s => z2byte (fpow q pk s);
  k_derive := fun h id seed => Some (1 + hz (seed ++ id) mod 40);
|}.

Definition TOY : Suite Z Z Z Z :=
  {| hash := TOYHASH; oprf := toy_oprf; ke := toy_ke; ksf_default := fun x => Some x |}.

Lemma byte2z_inv b lo hi z : byte2z b lo hi = Some z -> lo < z < hi /\ b = z2byte z /\ length b = 1%nat.
Proof.
  unfold byte2z. destruct b as [|x [|? ?]]; try discriminate.
  destruct (Z.ltb_spec lo (Z.of_N (b2n x))); [|discriminate].
  destruct (Z.ltb_spec (Z.of_N (b2n x)) hi); [|discriminate]. cbn [andb]. intros [= <-].
  split; [lia|]. split; [|reflexivity]. unfold z2byte. now rewrite N2Z.id, n2b_b2n.
Qed.

Lemma byte_valid lo hi z : 0 <= lo -> hi <= 256 ->
  byte2z (z2byte z) lo hi = Some z /\ length (z2byte z) = 1%nat <-> lo < z < hi.
Proof.
  intros Hlo Hhi. split.
  - intros [H _]. now apply byte2z_inv in H.
  - intros Hz. split; [|reflexivity]. unfold byte2z, z2byte. rewrite b2n_n2b, Z2N.id by lia.
    destruct (Z.ltb_spec lo z); [|lia]. destruct (Z.ltb_spec z hi); [|lia]. reflexivity.
Qed.

Lemma ve_iff e : ve TOY e <-> 0 < e < q.
Proof. now apply byte_valid. Qed.
Lemma vs_iff s : vs TOY s <-> 0 < s < q.
Proof. exact (ve_iff s). Qed.
Lemma vp_iff p : vp TOY p <-> 0 < p < q.
Proof. exact (ve_iff p). Qed.
Lemma vk_iff s : vk TOY s <-> 0 < s < 41.
Proof. now apply byte_valid. Qed.

Lemma succ_mod_range x m hi : 0 < m < hi -> 0 < 1 + x mod m < hi.
Proof. intros H. pose proof (Z.mod_pos_bound x m (proj1 H)). lia. Qed.

(* every string hashes to a valid element: CrashInv.good_pw holds of every password *)
Lemma toy_h2g_valid m d : ve TOY (o_h2g (oprf TOY) m d).
Proof. apply ve_iff. now apply succ_mod_range. Qed.

Lemma mul_mod_cancel p a r i : p <> 0 -> (r * i) mod p = 1 -> ((a * r) mod p * i) mod p = a mod p.
Proof. intros Hp H. now rewrite Z.mul_mod_idemp_l, <- Z.mul_assoc, <- Z.mul_mod_idemp_r, H, Z.mul_1_r. Qed.

(* The one fact found by evaluation: o_inv inverts each of 1..250.  Closure, unblinding and freeness follow. *)
Lemma inv_table : forallb (fun r => (r * fpow q r (q - 2)) mod q =? 1) (map Z.of_nat (seq 1 250)) = true.
Proof. vm_compute. reflexivity. Qed.

Lemma toy_inv r : 0 < r < q -> (r * fpow q r (q - 2)) mod q = 1.
Proof.
  intros Hr. apply Z.eqb_eq, (proj1 (forallb_forall _ _) inv_table).
  apply in_map_iff. exists (Z.to_nat r). unfold q in Hr. split; [lia | apply in_seq; lia].
Qed.

Lemma toy_mul_inv P r : 0 < P < q -> 0 < r < q -> ((P * r) mod q * fpow q r (q - 2)) mod q = P.
Proof. intros HP Hr. rewrite mul_mod_cancel; [apply Z.mod_small; lia | discriminate | apply toy_inv, Hr]. Qed.

Lemma toy_mul_valid P s : 0 < P < q -> 0 < s < q -> 0 < (P * s) mod q < q.
Proof.
  intros HP Hs. pose proof (Z.mod_pos_bound (P * s) q eq_refl).
  enough ((P * s) mod q <> 0) by lia. intros E.
  (* a zero product, multiplied by the inverse of s, would give P = 0 *)
  pose proof (toy_mul_inv P s HP Hs) as H0. rewrite E, Z.mul_0_l, Z.mod_0_l in H0 by discriminate. lia.
Qed.

Lemma toy_pow_valid g s : 0 < g < q -> 0 <= s -> 0 < g ^ s mod q < q.
Proof.
  intros Hg. revert s. apply natlike_ind.
  - now rewrite Z.pow_0_r.
  - intros s Hs IH. rewrite Z.pow_succ_r, <- Z.mul_mod_idemp_r by easy. now apply toy_mul_valid.
Qed.

Theorem toy_group_laws : GroupLaws TOY.
Proof.
  constructor.
  - intros P s HP%ve_iff Hs%vs_iff. apply ve_iff. now apply toy_mul_valid.
  - intros P a b _ _ _. cbn. rewrite !Z.mul_mod_idemp_l by discriminate. f_equal. ring.
  - intros P r HP%ve_iff Hr%vs_iff. now apply toy_mul_inv.
  - intros [|x t] r t' [= <- <-]. apply vs_iff. now apply succ_mod_range.
  - intros m d _. apply vs_iff. now apply succ_mod_range.
  - exact Z.eqb_eq.
  - intros P HP%ve_iff. apply Z.eqb_neq. cbn. lia.
  - intros b e H%byte2z_inv. now apply ve_iff.
  - intros b s _ H%byte2z_inv. now apply vs_iff.
  - intros h id seed s _ [= <-]. apply vk_iff. now apply succ_mod_range.
  - intros s Hs%vk_iff. apply vp_iff. cbn. rewrite fpow_spec by (unfold q; lia). apply toy_pow_valid; [easy | lia].
  - intros a b Ha%vk_iff Hb%vk_iff. cbn. rewrite !fpow_fpow by (unfold q; lia). now rewrite Z.mul_comm.
  - reflexivity.
  - intros b p H%byte2z_inv. now apply vp_iff.
  - intros b s _ H%byte2z_inv. now apply vk_iff.
Qed.

Theorem toy_codec_laws : CodecLaws TOY.
Proof.
  constructor; cbn.
  - intros b pk (_ & -> & _)%byte2z_inv. reflexivity.
  - intros b pk (_ & _ & H)%byte2z_inv. exact H.
  - intros b s _ (_ & -> & _)%byte2z_inv. reflexivity.
  - intros b s _ (_ & -> & _)%byte2z_inv. reflexivity.
  - intros b e _. reflexivity.
Qed.

Theorem toy_size_laws : SizeLaws TOY.
Proof. constructor; cbn -[Nat.mul]; lia. Qed.

(* the hypothesis [action_free] of Theory/WrongCredential.v and Theory/AcceptedLogin.v: multiply both sides by the inverse of P *)
Theorem toy_action_free P a b : ve TOY P -> vs TOY a -> vs TOY b -> o_mul (oprf TOY) P a = o_mul (oprf TOY) P b -> a = b.
Proof.
  intros HP%ve_iff Ha%vs_iff Hb%vs_iff H. cbn in H.
  rewrite <- (toy_mul_inv a P), <- (toy_mul_inv b P), (Z.mul_comm a), (Z.mul_comm b), H by assumption. reflexivity.
Qed.
