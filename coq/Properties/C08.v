(* C08 - unregistered users are indistinguishable from registered ones.  Statements only.
   Proved: same length and structure; the evaluation is the same function of (seed, credential identifier,
   request) as for a registered user; the fake record is (fresh masking key copied from the tape, all-zero
   envelope, the setup's fake public key); the remaining fields are read from the same tape ranges as in
   the real path (C17); no string other than the one HMAC completes the server side (C03).
   The client's InvalidLogin on a fake response is validated by the battery (it rests on the client not
   guessing the fake-key seed: a BadGuess event, DESIGN.md 2.2). *)
From Coq Require Import List.
From OKE Require Import Suite Generated Messages Opaque Laws Accept Shape Steps.

Theorem C08_same_length_and_structure :
  forall E Sc Pk Sk (CS : Suite E Sc Pk Sk), HashLaws (hash CS) -> GroupLaws CS ->
  forall tape (setup : ServerSetup Pk Sk Sk) file rq cred ctx ids st resp rest dbg,
    server_login_start CS (private_key_ops (ke CS)) tape setup file rq cred ctx ids = Ok (st, resp, rest, dbg) ->
    ve CS (cq_blinded rq) -> vk CS (kp_sk (ss_keypair setup)) ->
    (forall f, file = Some f -> envelope_has_length CS (ru_envelope f)) ->
    length (credential_response_serialize CS resp) = credential_response_len CS.
Proof. exact @response_length. Qed.
Print Assumptions C08_same_length_and_structure.

Theorem C08_same_evaluation :
  forall E Sc Pk Sk (CS : Suite E Sc Pk Sk) S (SK : SkOps Pk S) tape (setup : ServerSetup Pk Sk S) file rq cred ctx ids st resp rest dbg,
    server_login_start CS SK tape setup file rq cred ctx ids = Ok (st, resp, rest, dbg) ->
    server_evaluate CS (ss_oprf_seed setup) cred (cq_blinded rq) = Ok (cr_eval resp).
Proof. exact @login_start_evaluation. Qed.
Print Assumptions C08_same_evaluation.

Theorem C08_fake_record :
  forall E Sc Pk Sk (CS : Suite E Sc Pk Sk) tape S (setup : ServerSetup Pk Sk S) rec rest,
    registration_upload_dummy CS tape setup = Ok (rec, rest) ->
    tape = ru_masking_key rec ++ rest /\ length (ru_masking_key rec) = h_len (hash CS) /\
    ru_client_s_pk rec = kp_pk (ss_fake_keypair setup) /\ ru_envelope rec = envelope_dummy CS.
Proof. exact @registration_upload_dummy_Ok. Qed.
Print Assumptions C08_fake_record.

Theorem C08_fields_from_fresh_tape_ranges :
  forall E Sc Pk Sk (CS : Suite E Sc Pk Sk) S (SK : SkOps Pk S) tape setup file rq cred ctx ids st resp rest dbg,
    server_login_start CS SK tape setup file rq cred ctx ids = Ok (st, resp, rest, dbg) ->
    exists fmk eseed,
      tape = fmk ++ cr_masking_nonce resp ++ eseed ++ k2_nonce (cr_ke2 resp) ++ rest /\
      length fmk = (match file with Some _ => 0 | None => h_len (hash CS) end) /\
      length (cr_masking_nonce resp) = KE_NONCE_LEN /\ length eseed = k_Nsk (ke CS) /\
      length (k2_nonce (cr_ke2 resp)) = KE_NONCE_LEN /\
      (exists esk, k_derive (ke CS) (hash CS) (o_id (oprf CS)) eseed = Some esk /\
                   k2_server_e_pk (cr_ke2 resp) = k_pub (ke CS) esk).
Proof. exact @server_login_start_layout. Qed.
Print Assumptions C08_fields_from_fresh_tape_ranges.

Theorem C08_no_other_finalization :
  forall E Sc Pk Sk (CS : Suite E Sc Pk Sk) st m,
    cf_mac m <> h_hmac (hash CS) (sl_km3 st) (sl_hashed_transcript st) ->
    server_login_finish CS st m = Err EInvalidLogin.
Proof. exact @server_finish_reject. Qed.
Print Assumptions C08_no_other_finalization.


(* The theorems above that assume GroupLaws, at each of the 20 concrete suites, CurveLaws in place of GroupLaws
   (Theory/Concrete20.v). *)
From OKE Require Import CodecsConcrete GroupSplit Concrete20.

Definition C08_same_length_and_structure_statement {E Sc Pk Sk} (CS : Suite E Sc Pk Sk) : Prop :=
  forall tape (setup : ServerSetup Pk Sk Sk) file rq cred ctx ids st resp rest dbg,
    server_login_start CS (private_key_ops (ke CS)) tape setup file rq cred ctx ids = Ok (st, resp, rest, dbg) ->
    ve CS (cq_blinded rq) -> vk CS (kp_sk (ss_keypair setup)) ->
    (forall f, file = Some f -> envelope_has_length CS (ru_envelope f)) ->
    length (credential_response_serialize CS resp) = credential_response_len CS.
Theorem C08_same_length_and_structure_at_each_of_the_20_suites : all_suites (fun _ _ _ _ CS => CurveLaws CS -> C08_same_length_and_structure_statement CS).
Proof. apply at_the_20_suites. exact C08_same_length_and_structure. Qed.
Print Assumptions C08_same_length_and_structure_at_each_of_the_20_suites.

(* Over histories: attempts draw from disjoint ranges.
   In every world reachable in the adversarial model (any number of login attempts against any identifiers - with or
   without a record -, interleaved in any order with client steps and finish steps, all parties sharing one tape): two
   server sessions j < k drew their random fields (fake masking key if there is no record, masking nonce, ephemeral-key
   seed, server nonce) from disjoint ranges of that one tape, session k's after session j's.  No random field of an
   attempt is a function of another attempt's or is reused.  [sampler_prefix]: the OPRF scalar sampler consumes a prefix
   of the tape - proved for the 20 suites and the toy suite (second theorem). *)
From OKE Require Import World FreshRanges SamplerConcrete Toy.
Theorem C08_attempts_draw_from_disjoint_ranges_in_any_history :
  forall E Sc Pk Sk (CS : Suite E Sc Pk Sk), sampler_prefix CS ->
  forall setup tape ops j k sj sk,
    let w := run CS (@init E Sc Pk Sk setup tape) ops in
    j < k -> nth_error (w_srv w) j = Some sj -> nth_error (w_srv w) k = Some sk ->
    exists tj fj nj ej mj mid fk nk ek mk restk,
      tj = fj ++ nj ++ ej ++ mj ++ mid ++ fk ++ nk ++ ek ++ mk ++ restk /\
      nj = cr_masking_nonce (sv_resp sj) /\ mj = k2_nonce (cr_ke2 (sv_resp sj)) /\
      nk = cr_masking_nonce (sv_resp sk) /\ mk = k2_nonce (cr_ke2 (sv_resp sk)) /\
      length fj = (match sv_file sj with Some _ => 0 | None => h_len (hash CS) end) /\
      length fk = (match sv_file sk with Some _ => 0 | None => h_len (hash CS) end) /\
      length nj = KE_NONCE_LEN /\ length nk = KE_NONCE_LEN /\ length mj = KE_NONCE_LEN /\ length mk = KE_NONCE_LEN /\
      length ej = k_Nsk (ke CS) /\ length ek = k_Nsk (ke CS) /\
      (exists esk, k_derive (ke CS) (hash CS) (o_id (oprf CS)) ej = Some esk /\ k2_server_e_pk (cr_ke2 (sv_resp sj)) = k_pub (ke CS) esk) /\
      (exists esk, k_derive (ke CS) (hash CS) (o_id (oprf CS)) ek = Some esk /\ k2_server_e_pk (cr_ke2 (sv_resp sk)) = k_pub (ke CS) esk) /\
      suffix tj tape.
Proof. exact @attempts_draw_from_disjoint_ranges. Qed.
Print Assumptions C08_attempts_draw_from_disjoint_ranges_in_any_history.

Theorem C08_samplers_consume_a_prefix_of_the_tape : all_suites (fun _ _ _ _ CS => sampler_prefix CS) /\ sampler_prefix TOY.
Proof. exact (conj sampler_prefix_20 sampler_prefix_toy). Qed.
Print Assumptions C08_samplers_consume_a_prefix_of_the_tape.
