(* C17 - deterministic in the supplied randomness, and every random value is fresh.  Statements only.
   Determinism is definitional (every operation of the model is a Gallina function of its arguments and
   the tape; the correspondence check compares the crate with it byte for byte, including tape positions).
   The content proved here is the tape LAYOUT: which range each random value is taken from, that ranges
   are consecutive and disjoint, that nonces / seeds / the fake masking key are copies of their range and
   key pairs are the key derivation of theirs, and that nothing else is read. *)
From Coq Require Import List.
From OKE Require Import Suite Generated Messages Envelope TripleDH Opaque Steps.

Theorem C17_setup_layout :
  forall E Sc Pk Sk (CS : Suite E Sc Pk Sk) tape setup rest,
    server_setup_new CS tape = Ok (setup, rest) ->
    exists s1 seed s2,
      tape = s1 ++ seed ++ s2 ++ rest /\
      length s1 = k_Nsk (ke CS) /\ length seed = h_len (hash CS) /\ length s2 = k_Nsk (ke CS) /\
      ss_oprf_seed setup = seed /\
      k_derive (ke CS) (hash CS) (o_id (oprf CS)) s1 = Some (kp_sk (ss_keypair setup)) /\
      k_derive (ke CS) (hash CS) (o_id (oprf CS)) s2 = Some (kp_sk (ss_fake_keypair setup)).
Proof. exact @server_setup_new_layout. Qed.
Print Assumptions C17_setup_layout.

Theorem C17_envelope_nonce_layout :
  forall E Sc Pk Sk (CS : Suite E Sc Pk Sk) tape rp spk ids env cpk ek rest,
    envelope_seal CS tape rp spk ids = Ok (env, cpk, ek, rest) ->
    tape = env_nonce env ++ rest /\ length (env_nonce env) = ENVELOPE_NONCE_LEN.
Proof. exact @envelope_seal_layout. Qed.
Print Assumptions C17_envelope_nonce_layout.

Theorem C17_client_key_share_layout :
  forall E Sc Pk Sk (CS : Suite E Sc Pk Sk) tape st m rest,
    generate_ke1 CS tape = Ok (st, m, rest) ->
    exists seed, tape = seed ++ k1_nonce m ++ rest /\ length seed = k_Nsk (ke CS) /\ length (k1_nonce m) = KE_NONCE_LEN /\
      k_derive (ke CS) (hash CS) (o_id (oprf CS)) seed = Some (k1s_client_e_sk st) /\
      k1_client_e_pk m = k_pub (ke CS) (k1s_client_e_sk st) /\ k1s_nonce st = k1_nonce m.
Proof. exact @generate_ke1_layout. Qed.
Print Assumptions C17_client_key_share_layout.

Theorem C17_server_login_layout :
  forall E Sc Pk Sk (CS : Suite E Sc Pk Sk) S (SK : SkOps Pk S) tape setup file rq cred ctx ids st resp rest dbg,
    server_login_start CS SK tape setup file rq cred ctx ids = Ok (st, resp, rest, dbg) ->
    exists fmk eseed,
      tape = fmk ++ cr_masking_nonce resp ++ eseed ++ k2_nonce (cr_ke2 resp) ++ rest /\
      length fmk = (match file with Some _ => 0 | None => h_len (hash CS) end) /\
      length (cr_masking_nonce resp) = KE_NONCE_LEN /\ length eseed = k_Nsk (ke CS) /\
      length (k2_nonce (cr_ke2 resp)) = KE_NONCE_LEN /\
      (exists esk, k_derive (ke CS) (hash CS) (o_id (oprf CS)) eseed = Some esk /\
                   k2_server_e_pk (cr_ke2 resp) = k_pub (ke CS) esk).
Proof. exact @server_login_start_layout. Qed.
Print Assumptions C17_server_login_layout.

Theorem C17_fake_masking_key_from_tape :
  forall E Sc Pk Sk (CS : Suite E Sc Pk Sk) tape S (setup : ServerSetup Pk Sk S) rec rest,
    registration_upload_dummy CS tape setup = Ok (rec, rest) ->
    tape = ru_masking_key rec ++ rest /\ length (ru_masking_key rec) = h_len (hash CS) /\
    ru_client_s_pk rec = kp_pk (ss_fake_keypair setup) /\ ru_envelope rec = envelope_dummy CS.
Proof. exact @registration_upload_dummy_Ok. Qed.
Print Assumptions C17_fake_masking_key_from_tape.


(* the OPRF blind (per group): ONE tape chunk - the first that yields a valid scalar - read as an integer (NIST) or
   reduced mod ell (ristretto255), preceded only by rejected chunks; the rest of the tape is returned untouched *)
From Coq Require Import ZArith.
From OKE Require Import Field Weierstrass Curve25519 BlindLayout.
Theorem C17_blind_layout_nist :
  forall (C : wcurve) tape k rest,
    w_random_scalar C tape = Some (k, rest) ->
    exists rejected accepted,
      tape = (concat rejected ++ accepted ++ rest)%list /\
      Forall (w_chunk_rejected C) rejected /\
      length accepted = w_Nfe C /\ k = bytes_to_Z_be accepted /\ (0 < k < w_n C)%Z.
Proof. exact @w_blind_layout. Qed.
Print Assumptions C17_blind_layout_nist.

Theorem C17_blind_layout_ristretto :
  forall tape k rest,
    r_random_scalar tape = Some (k, rest) ->
    exists rejected accepted,
      tape = (concat rejected ++ accepted ++ rest)%list /\
      Forall r_chunk_rejected rejected /\
      length accepted = 64 /\ k = (bytes_to_Z_le accepted mod ell)%Z /\ k <> 0%Z.
Proof. exact @r_blind_layout. Qed.
Print Assumptions C17_blind_layout_ristretto.

(* Over histories: attempts draw from disjoint ranges.
   In every world reachable in the adversarial model (any number of login attempts against any identifiers - with or
   without a record -, interleaved in any order with client steps and finish steps, all parties sharing one tape): two
   server sessions j < k drew their random fields (fake masking key if there is no record, masking nonce, ephemeral-key
   seed, server nonce) from disjoint ranges of that one tape, session k's after session j's.  No random field of an
   attempt is a function of another attempt's or is reused.  [sampler_prefix]: the OPRF scalar sampler consumes a prefix
   of the tape - proved for the 20 suites and the toy suite (second theorem). *)
From OKE Require Import World FreshRanges SamplerConcrete CodecsConcrete Toy.
Theorem C17_attempts_draw_from_disjoint_ranges_in_any_history :
  forall E Sc Pk Sk (CS : Suite E Sc Pk Sk), sampler_prefix CS ->
  forall setup tape ops j k sj sk,
    let w := run CS (@init E Sc Pk Sk setup tape) ops in
    j < k -> nth_error (w_srv w) j = Some sj -> nth_error (w_srv w) k = Some sk ->
    exists tj fj nj ej mj mid fk nk ek mk restk,
      tj = fj ++ nj ++ ej ++ mj ++ mid ++ fk ++ nk ++ ek ++ mk ++ restk /\
      nj = cr_masking_nonce (sv_resp sj) /\ mj = k2_nonce (cr_ke2 (sv_resp sj)) /\
      nk = cr_masking_nonce (sv_resp sk) /\ mk = k2_nonce (cr_ke2 (sv_resp sk)) /\
      length fj = (match sv_file sj with Some _ => 0 | None => h_len (hash CS) end) /\
      length fk = (match sv_file sk with Some _ => 0 | None => h_len (hash CS) end) /\
      length nj = KE_NONCE_LEN /\ length nk = KE_NONCE_LEN /\ length mj = KE_NONCE_LEN /\ length mk = KE_NONCE_LEN /\
      length ej = k_Nsk (ke CS) /\ length ek = k_Nsk (ke CS) /\
      (exists esk, k_derive (ke CS) (hash CS) (o_id (oprf CS)) ej = Some esk /\ k2_server_e_pk (cr_ke2 (sv_resp sj)) = k_pub (ke CS) esk) /\
      (exists esk, k_derive (ke CS) (hash CS) (o_id (oprf CS)) ek = Some esk /\ k2_server_e_pk (cr_ke2 (sv_resp sk)) = k_pub (ke CS) esk) /\
      suffix tj tape.
Proof. exact @attempts_draw_from_disjoint_ranges. Qed.
Print Assumptions C17_attempts_draw_from_disjoint_ranges_in_any_history.

Theorem C17_samplers_consume_a_prefix_of_the_tape : all_suites (fun _ _ _ _ CS => sampler_prefix CS) /\ sampler_prefix TOY.
Proof. exact (conj sampler_prefix_20 sampler_prefix_toy). Qed.
Print Assumptions C17_samplers_consume_a_prefix_of_the_tape.
