(* C05 - identities, context and credential identifier are bound, unambiguously.
   The injectivity half is unconditional list arithmetic: no hash is involved, so "moving bytes
   between context, client identity and server identity, or changing a length across the 255/256
   or 65535 boundary, never turns a mismatch into a match" holds for every length below 2^16, and
   longer values are refused.  Statements only; proofs in Theory/Transcript.v, Theory/BytesLemmas.v. *)
From Coq Require Import List NArith.
From OKE Require Import Bytes Suite Generated Messages Envelope TripleDH Opaque BytesLemmas Transcript.

(* the length prefix refuses exactly what does not fit: never a wrapped or truncated encoding *)
Theorem C05_i2osp2_refuses : forall n, i2osp_nat 2 n = None <-> (65536 <= N.of_nat n)%N.
Proof. exact i2osp2_refuses. Qed.
Print Assumptions C05_i2osp2_refuses.

(* a length-prefixed field followed by anything determines the field and the rest *)
Theorem C05_lenprefix_injective :
  forall l x y px py r1 r2, lenprefix l x = Some px -> lenprefix l y = Some py -> px ++ r1 = py ++ r2 -> x = y /\ r1 = r2.
Proof. exact @lenprefix_inj. Qed.
Print Assumptions C05_lenprefix_injective.

(* the 3DH transcript determines context, both effective identities, the request, the response
   without MAC, the server nonce and the server ephemeral key *)
Theorem C05_preamble_injective :
  forall context iu req is_ l2 n e context' iu' req' is_' l2' n' e' u s u' s' p,
    lenprefix 2 iu = Some u -> lenprefix 2 is_ = Some s ->
    lenprefix 2 iu' = Some u' -> lenprefix 2 is_' = Some s' ->
    length req = length req' -> length l2 = length l2' -> length n = length n' ->
    preamble context u req s l2 n e = Ok p ->
    preamble context' u' req' s' l2' n' e' = Ok p ->
    context = context' /\ iu = iu' /\ req = req' /\ is_ = is_' /\ l2 = l2' /\ n = n' /\ e = e'.
Proof. exact preamble_injective. Qed.
Print Assumptions C05_preamble_injective.

Theorem C05_no_boundary_shift :
  forall context iu is_ context' iu' is_' req l2 n e u s u' s' p p',
    lenprefix 2 iu = Some u -> lenprefix 2 is_ = Some s ->
    lenprefix 2 iu' = Some u' -> lenprefix 2 is_' = Some s' ->
    preamble context u req s l2 n e = Ok p ->
    preamble context' u' req s' l2 n e = Ok p' ->
    (context, iu, is_) <> (context', iu', is_') -> p <> p'.
Proof. exact preamble_no_boundary_shift. Qed.
Print Assumptions C05_no_boundary_shift.

(* the data authenticated by the envelope determines the server key and both sealed identities *)
Theorem C05_aad_injective :
  forall nonce iu is_ spk nonce' iu' is_' spk' u s u' s',
    lenprefix 2 iu = Some u -> lenprefix 2 is_ = Some s ->
    lenprefix 2 iu' = Some u' -> lenprefix 2 is_' = Some s' ->
    length nonce = length nonce' -> length spk = length spk' ->
    nonce ++ construct_aad u s spk = nonce' ++ construct_aad u' s' spk' ->
    nonce = nonce' /\ spk = spk' /\ is_ = is_' /\ iu = iu'.
Proof. exact aad_injective. Qed.
Print Assumptions C05_aad_injective.

(* the per-credential OPRF key is derived from an injective encoding of the credential identifier *)
Theorem C05_credential_identifier_injective :
  forall cred cred', cred ++ STR_OPRF_KEY = cred' ++ STR_OPRF_KEY -> cred = cred'.
Proof. exact oprf_key_info_injective. Qed.
Print Assumptions C05_credential_identifier_injective.

(* an absent identity means that party's static public key *)
Theorem C05_default_identity_spelling :
  forall ids cpk spk,
    bytestrings_from_identifiers ids cpk spk =
    bytestrings_from_identifiers {| id_client := Some (effective (id_client ids) cpk);
                                    id_server := Some (effective (id_server ids) spk) |} cpk spk.
Proof. exact default_identity_spelling. Qed.
Print Assumptions C05_default_identity_spelling.

(* identities and contexts that do not fit are refused *)
Theorem C05_long_identity_refused :
  forall ids cpk spk, (65536 <= N.of_nat (length (effective (id_client ids) cpk)))%N ->
    bytestrings_from_identifiers ids cpk spk = Err ESerialization.
Proof. exact bytestrings_refuses_client. Qed.
Print Assumptions C05_long_identity_refused.

Theorem C05_long_context_refused :
  forall context u req s l2 n e, (65536 <= N.of_nat (length context))%N -> preamble context u req s l2 n e = Err ESerialization.
Proof. exact preamble_refuses_context. Qed.
Print Assumptions C05_long_context_refused.

(* "Login succeeds only if client and server use the same context and the same effective identities": if the client
   accepts a response carrying the MAC of an honest server session, both sides used the same context (absent = empty)
   and the same effective client and server identities (absent = that party's static public key) - or a collision is
   exhibited.  The adversary chooses what is delivered (r' is arbitrary apart from the MAC field). *)
From OKE Require Import Voprf Laws Bad ClientAccept MatchingApi KeySeparation WrongCredential.
Theorem C05_accepted_login_agrees_on_context_and_identities :
  forall E Sc Pk Sk (CS : Suite E Sc Pk Sk), HashLaws (hash CS) -> GroupLaws CS ->
  forall tape (setup : ServerSetup Pk Sk Sk) file rq cred ctx_s ids_s slog resp rest dbg
         clog pw r' ctx_c ids_c ksf fin sk ek spk dbgc,
    server_login_start CS (private_key_ops (ke CS)) tape setup (Some file) rq cred ctx_s ids_s = Ok (slog, resp, rest, dbg) ->
    client_login_finish CS clog pw r' ctx_c ids_c ksf = Ok (fin, sk, ek, spk, dbgc) ->
    k2_mac (cr_ke2 r') = k2_mac (cr_ke2 resp) ->
    length (client_request_bytes CS clog) = length (server_request_bytes CS rq) ->
    length (client_l2 CS r') = length (client_l2 CS resp) ->
    length (k2_nonce (cr_ke2 r')) = length (k2_nonce (cr_ke2 resp)) ->
    (exists rp env kp u s,
       envelope_open CS env rp spk ids_c = Ok (kp, ek, u, s) /\
       match ctx_c with Some c => c | None => nil end = match ctx_s with Some c => c | None => nil end /\
       effective (id_client ids_c) (k_ser_pk (ke CS) (kp_pk kp)) =
         effective (id_client ids_s) (k_ser_pk (ke CS) (ru_client_s_pk file)) /\
       effective (id_server ids_c) (k_ser_pk (ke CS) spk) =
         effective (id_server ids_s) (k_ser_pk (ke CS) (k_pub (ke CS) (kp_sk (ss_keypair setup)))))
    \/ Bad (hash CS).
Proof. exact @accepted_login_agrees_on_context_and_identities. Qed.
Print Assumptions C05_accepted_login_agrees_on_context_and_identities.

(* "... and the server evaluates under the credential identifier used at registration; any disagreement makes the
   client's final step fail": after an honest registration with (pw, cred), a login in which the client uses another
   password OR the server evaluates under another credential identifier is never accepted - unless a collision of HMAC,
   the hash, HKDF-Expand, the client key derivation, Diffie-Hellman in the private key or the OPRF key derivation is
   exhibited.  [action_free]: the scalar action of the OPRF group is free on valid elements and scalars (a group law in
   addition to GroupLaws; proved for the toy suite). *)
Theorem C05_other_password_or_credential_identifier_never_accepted :
  forall E Sc Pk Sk (CS : Suite E Sc Pk Sk), HashLaws (hash CS) -> GroupLaws CS ->
  (forall a b : Sk, {a = b} + {a <> b}) ->
  (forall P a b, ve CS P -> vs CS a -> vs CS b -> o_mul (oprf CS) P a = o_mul (oprf CS) P b -> a = b) ->
  forall tape setup t1 pw creg rq t2 cred rr ids ksf upload ek spk t3 pw' cred' clog ke1 t4 ctx slog ke2 t5 dbg out,
    ve CS (o_h2g (oprf CS) pw (dst_hash_to_group (oprf CS))) ->
    ve CS (o_h2g (oprf CS) pw' (dst_hash_to_group (oprf CS))) ->
    server_setup_new CS tape = Ok (setup, t1) ->
    client_registration_start CS t1 pw = Ok (creg, rq, t2) ->
    server_registration_start CS setup rq cred = Ok rr ->
    client_registration_finish CS creg t2 pw rr ids ksf = Ok (upload, ek, spk, t3) ->
    pw' <> pw \/ cred' <> cred ->
    client_login_start CS t3 pw' = Ok (clog, ke1, t4) ->
    server_login_start CS (private_key_ops (ke CS)) t4 setup (Some (server_registration_finish upload)) ke1 cred' ctx ids
      = Ok (slog, ke2, t5, dbg) ->
    client_login_finish CS clog pw' ke2 ctx ids ksf = Ok out ->
    BadS CS \/ BadOprfDerive CS.
Proof. exact @mismatched_login_never_accepted. Qed.
Print Assumptions C05_other_password_or_credential_identifier_never_accepted.


(* The theorems above that assume GroupLaws, at each of the 20 concrete suites, CurveLaws in place of GroupLaws
   (Theory/Concrete20.v). The second statement keeps, inside it, decidable equality on Sk and the free scalar action. *)
From OKE Require Import CodecsConcrete GroupSplit Concrete20.

Definition C05_accepted_login_agrees_on_context_and_identities_statement {E Sc Pk Sk} (CS : Suite E Sc Pk Sk) : Prop :=
  forall tape (setup : ServerSetup Pk Sk Sk) file rq cred ctx_s ids_s slog resp rest dbg
         clog pw r' ctx_c ids_c ksf fin sk ek spk dbgc,
    server_login_start CS (private_key_ops (ke CS)) tape setup (Some file) rq cred ctx_s ids_s = Ok (slog, resp, rest, dbg) ->
    client_login_finish CS clog pw r' ctx_c ids_c ksf = Ok (fin, sk, ek, spk, dbgc) ->
    k2_mac (cr_ke2 r') = k2_mac (cr_ke2 resp) ->
    length (client_request_bytes CS clog) = length (server_request_bytes CS rq) ->
    length (client_l2 CS r') = length (client_l2 CS resp) ->
    length (k2_nonce (cr_ke2 r')) = length (k2_nonce (cr_ke2 resp)) ->
    (exists rp env kp u s,
       envelope_open CS env rp spk ids_c = Ok (kp, ek, u, s) /\
       match ctx_c with Some c => c | None => nil end = match ctx_s with Some c => c | None => nil end /\
       effective (id_client ids_c) (k_ser_pk (ke CS) (kp_pk kp)) =
         effective (id_client ids_s) (k_ser_pk (ke CS) (ru_client_s_pk file)) /\
       effective (id_server ids_c) (k_ser_pk (ke CS) spk) =
         effective (id_server ids_s) (k_ser_pk (ke CS) (k_pub (ke CS) (kp_sk (ss_keypair setup)))))
    \/ Bad (hash CS).
Theorem C05_accepted_login_agrees_on_context_and_identities_at_each_of_the_20_suites : all_suites (fun _ _ _ _ CS => CurveLaws CS -> C05_accepted_login_agrees_on_context_and_identities_statement CS).
Proof. apply at_the_20_suites. exact C05_accepted_login_agrees_on_context_and_identities. Qed.
Print Assumptions C05_accepted_login_agrees_on_context_and_identities_at_each_of_the_20_suites.

Definition C05_other_password_or_credential_identifier_never_accepted_statement {E Sc Pk Sk} (CS : Suite E Sc Pk Sk) : Prop :=
  (forall a b : Sk, {a = b} + {a <> b}) ->
  (forall P a b, ve CS P -> vs CS a -> vs CS b -> o_mul (oprf CS) P a = o_mul (oprf CS) P b -> a = b) ->
  forall tape setup t1 pw creg rq t2 cred rr ids ksf upload ek spk t3 pw' cred' clog ke1 t4 ctx slog ke2 t5 dbg out,
    ve CS (o_h2g (oprf CS) pw (dst_hash_to_group (oprf CS))) ->
    ve CS (o_h2g (oprf CS) pw' (dst_hash_to_group (oprf CS))) ->
    server_setup_new CS tape = Ok (setup, t1) ->
    client_registration_start CS t1 pw = Ok (creg, rq, t2) ->
    server_registration_start CS setup rq cred = Ok rr ->
    client_registration_finish CS creg t2 pw rr ids ksf = Ok (upload, ek, spk, t3) ->
    pw' <> pw \/ cred' <> cred ->
    client_login_start CS t3 pw' = Ok (clog, ke1, t4) ->
    server_login_start CS (private_key_ops (ke CS)) t4 setup (Some (server_registration_finish upload)) ke1 cred' ctx ids
      = Ok (slog, ke2, t5, dbg) ->
    client_login_finish CS clog pw' ke2 ctx ids ksf = Ok out ->
    BadS CS \/ BadOprfDerive CS.
Theorem C05_other_password_or_credential_identifier_never_accepted_at_each_of_the_20_suites : all_suites (fun _ _ _ _ CS => CurveLaws CS -> C05_other_password_or_credential_identifier_never_accepted_statement CS).
Proof. apply at_the_20_suites. exact C05_other_password_or_credential_identifier_never_accepted. Qed.
Print Assumptions C05_other_password_or_credential_identifier_never_accepted_at_each_of_the_20_suites.
