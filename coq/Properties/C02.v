(* C02 - a wrong password never logs in.  Statements only; proofs in Theory/WrongPassword.v (the chain,
   which rests on Theory/KeySchedule.v), Theory/Transcript.v, Theory/Layers.v, Theory/Accept.v, Theory/ClientAccept.v.
   Main theorem: after an honest registration with pw, a login attempt with ANY pw' <> pw against the
   honest server is never accepted by the client, unless an explicit bad event is exhibited (BadS: a
   collision of HMAC, of the hash, of HKDF-Expand on the key seed, of the key derivation, or of
   Diffie-Hellman in the private key - each constructor carries its witness; nothing is assumed about
   the hash).  "No session key, export key or finalization" is by the result type; the error KIND
   (InvalidLogin) is observed by the battery on every near-miss pair. *)
From Coq Require Import List NArith.
From OKE Require Import Bytes Suite Labels Hkdf Voprf Messages Opaque Laws Layers Transcript Accept ClientAccept Bad WrongPassword.

Theorem C02_wrong_password_never_accepted :
  forall E Sc Pk Sk (CS : Suite E Sc Pk Sk), HashLaws (hash CS) -> GroupLaws CS ->
  (forall a b : Sk, {a = b} + {a <> b}) ->
  forall tape setup t1 pw creg rq t2 cred rr ids ksf upload ek spk t3 pw' clog ke1 t4 ctx slog ke2 t5 dbg out,
    ve CS (o_h2g (oprf CS) pw (dst_hash_to_group (oprf CS))) ->
    ve CS (o_h2g (oprf CS) pw' (dst_hash_to_group (oprf CS))) ->
    server_setup_new CS tape = Ok (setup, t1) ->
    client_registration_start CS t1 pw = Ok (creg, rq, t2) ->
    server_registration_start CS setup rq cred = Ok rr ->
    client_registration_finish CS creg t2 pw rr ids ksf = Ok (upload, ek, spk, t3) ->
    pw' <> pw ->
    client_login_start CS t3 pw' = Ok (clog, ke1, t4) ->
    server_login_start CS (private_key_ops (ke CS)) t4 setup (Some (server_registration_finish upload)) ke1 cred ctx ids
      = Ok (slog, ke2, t5, dbg) ->
    client_login_finish CS clog pw' ke2 ctx ids ksf = Ok out ->
    BadS CS.
Proof. exact @wrong_password_never_accepted. Qed.
Print Assumptions C02_wrong_password_never_accepted.

Theorem C02_password_encoding_injective :
  forall E Sc Pk Sk (CS : Suite E Sc Pk Sk) input input' l l' ser ser',
    i2osp_nat 2 (length input) = Some l -> i2osp_nat 2 (length input') = Some l' ->
    length ser = length ser' ->
    l ++ input ++ be_bytes 2 (N.of_nat (o_Noe (oprf CS))) ++ ser ++ STR_FINALIZE =
    l' ++ input' ++ be_bytes 2 (N.of_nat (o_Noe (oprf CS))) ++ ser' ++ STR_FINALIZE ->
    input = input' /\ ser = ser'.
Proof. exact @finalize_input_injective. Qed.
Print Assumptions C02_password_encoding_injective.

Theorem C02_oprf_output_is_hash_of_password_and_key :
  forall E Sc Pk Sk (CS : Suite E Sc Pk Sk), GroupLaws CS ->
  forall input r k P, ve CS P -> vs CS r -> vs CS k ->
    voprf_finalize (hash CS) (oprf CS) r input (o_mul (oprf CS) (o_mul (oprf CS) P r) k) =
    match i2osp_nat 2 (length input) with
    | None => Err (ELibrary (LOprfError OInput))
    | Some len => Ok (h_hash (hash CS) (len ++ input ++ be_bytes 2 (N.of_nat (o_Noe (oprf CS))) ++
                                        o_ser_e (oprf CS) (o_mul (oprf CS) P k) ++ STR_FINALIZE))
    end.
Proof. exact @oprf_unblind. Qed.
Print Assumptions C02_oprf_output_is_hash_of_password_and_key.

Theorem C02_long_password_refused :
  forall E Sc Pk Sk (CS : Suite E Sc Pk Sk) st pw r ctx ids ksf,
    (65536 <= N.of_nat (length pw))%N ->
    o_eqb (oprf CS) (cq_blinded (cl_request st)) (cr_eval r) = false ->
    client_login_finish CS st pw r ctx ids ksf = Err (ELibrary (LOprfError OInput)).
Proof. exact @client_login_finish_refuses_long_password. Qed.
Print Assumptions C02_long_password_refused.

Theorem C02_stretched_output_bound :
  forall E Sc Pk Sk (CS : Suite E Sc Pk Sk) input blind ev (f : ksf_fn) y z,
    voprf_finalize (hash CS) (oprf CS) blind input ev = Ok y -> f y = Some z ->
    get_password_derived_key CS input blind ev (Some f) = Ok (hkdf_extract (hash CS) None (y ++ z)).
Proof. exact @ksf_bound. Qed.
Print Assumptions C02_stretched_output_bound.

(* no partial outputs: a failed final step yields no session key, export key or finalization *)
Theorem C02_failure_yields_nothing :
  forall E Sc Pk Sk (CS : Suite E Sc Pk Sk) st pw r ctx ids ksf e,
    client_login_finish CS st pw r ctx ids ksf = Err e ->
    forall out, client_login_finish CS st pw r ctx ids ksf <> Ok out.
Proof. exact @rejected_yields_nothing. Qed.
Print Assumptions C02_failure_yields_nothing.


(* the same statement at each of the 20 concrete suites, CurveLaws in place of GroupLaws (Theory/Concrete20.v);
   the first statement keeps, inside it, decidable equality on Sk *)
From OKE Require Import CodecsConcrete GroupSplit Concrete20.
Definition C02_wrong_password_never_accepted_statement {E Sc Pk Sk} (CS : Suite E Sc Pk Sk) : Prop :=
  (forall a b : Sk, {a = b} + {a <> b}) ->
  forall tape setup t1 pw creg rq t2 cred rr ids ksf upload ek spk t3 pw' clog ke1 t4 ctx slog ke2 t5 dbg out,
    ve CS (o_h2g (oprf CS) pw (dst_hash_to_group (oprf CS))) ->
    ve CS (o_h2g (oprf CS) pw' (dst_hash_to_group (oprf CS))) ->
    server_setup_new CS tape = Ok (setup, t1) ->
    client_registration_start CS t1 pw = Ok (creg, rq, t2) ->
    server_registration_start CS setup rq cred = Ok rr ->
    client_registration_finish CS creg t2 pw rr ids ksf = Ok (upload, ek, spk, t3) ->
    pw' <> pw ->
    client_login_start CS t3 pw' = Ok (clog, ke1, t4) ->
    server_login_start CS (private_key_ops (ke CS)) t4 setup (Some (server_registration_finish upload)) ke1 cred ctx ids
      = Ok (slog, ke2, t5, dbg) ->
    client_login_finish CS clog pw' ke2 ctx ids ksf = Ok out ->
    BadS CS.
Theorem C02_wrong_password_never_accepted_at_each_of_the_20_suites :
  all_suites (fun _ _ _ _ CS => CurveLaws CS -> C02_wrong_password_never_accepted_statement CS).
Proof. apply at_the_20_suites. exact C02_wrong_password_never_accepted. Qed.
Print Assumptions C02_wrong_password_never_accepted_at_each_of_the_20_suites.


(* further theorems above, restated at the 20 suites *)

Definition C02_oprf_output_is_hash_of_password_and_key_statement {E Sc Pk Sk} (CS : Suite E Sc Pk Sk) : Prop :=
  forall input r k P, ve CS P -> vs CS r -> vs CS k ->
    voprf_finalize (hash CS) (oprf CS) r input (o_mul (oprf CS) (o_mul (oprf CS) P r) k) =
    match i2osp_nat 2 (length input) with
    | None => Err (ELibrary (LOprfError OInput))
    | Some len => Ok (h_hash (hash CS) (len ++ input ++ be_bytes 2 (N.of_nat (o_Noe (oprf CS))) ++
                                        o_ser_e (oprf CS) (o_mul (oprf CS) P k) ++ STR_FINALIZE))
    end.
Theorem C02_oprf_output_is_hash_of_password_and_key_at_each_of_the_20_suites : all_suites (fun _ _ _ _ CS => CurveLaws CS -> C02_oprf_output_is_hash_of_password_and_key_statement CS).
Proof. apply at_the_20_suites_g. exact C02_oprf_output_is_hash_of_password_and_key. Qed.
Print Assumptions C02_oprf_output_is_hash_of_password_and_key_at_each_of_the_20_suites.
