(* C07 - sessions are fresh and isolated under adversarial message routing.
   PROVED (this file): the pairwise facts the matched-conversation argument is made of -
   (a) a pending server session accepts exactly one finalization, the HMAC over ITS transcript under ITS key;
   (b) the transcript determines the request, the response without MAC, the server nonce and ephemeral key,
       the context and both identities (so two sessions with equal transcripts have exchanged the same
       request and response);
   (c) within a matched session both sides derive the same key and the client's finalization is the one
       the server expects;
   (d) a session's nonces and ephemeral seed are copies / derivations of ranges of ITS tape (that two sessions of one
       world draw from disjoint ranges is C08_attempts_draw_from_disjoint_ranges_in_any_history).
   (e) MATCHING, whatever the routing: a client that accepts a response carrying the MAC of an honest server
       session has the same transcript as that session (so the session consumed this client's request and
       the response is that session's, field by field), and a server session that accepts a client run's
       finalization has the transcript and server MAC that run verified - or an HMAC / hash collision is
       exhibited.
   (f) HISTORIES (under "histories" in this file): the world of Model/World.v - one server setup, any number of client and
       server sessions, a network adversary who chooses every delivered message and the order of all steps, one
       shared RNG tape - satisfies, after EVERY sequence of operations (induction over the operation list, no
       bound), that each recorded acceptance is backed by its step's defining equation; hence in every reachable
       world (e) holds for every completed client session against every server session, and every completed
       server session accepted the one MAC over its own transcript and released its own key.
   What remains outside the theorems: that a response whose MAC was NOT produced by any honest session is
   rejected (unforgeability; C04), covered by the exhaustive routing/tamper batteries. *)
From Coq Require Import List.
From OKE Require Import Bytes Suite Generated Messages Envelope TripleDH Opaque Laws Layers Transcript Accept Steps Bad MatchingApi.

Theorem C07_one_finalization_per_session :
  forall E Sc Pk Sk (CS : Suite E Sc Pk Sk) st m k,
    server_login_finish CS st m = Ok k <->
    cf_mac m = h_hmac (hash CS) (sl_km3 st) (sl_hashed_transcript st) /\ k = sl_session_key st.
Proof. exact @server_finish_accept_iff. Qed.
Print Assumptions C07_one_finalization_per_session.

Theorem C07_transcript_determines_conversation :
  forall context iu req is_ l2 n e context' iu' req' is_' l2' n' e' u s u' s' p,
    lenprefix 2 iu = Some u -> lenprefix 2 is_ = Some s ->
    lenprefix 2 iu' = Some u' -> lenprefix 2 is_' = Some s' ->
    length req = length req' -> length l2 = length l2' -> length n = length n' ->
    preamble context u req s l2 n e = Ok p ->
    preamble context' u' req' s' l2' n' e' = Ok p ->
    context = context' /\ iu = iu' /\ req = req' /\ is_ = is_' /\ l2 = l2' /\ n = n' /\ e = e'.
Proof. exact preamble_injective. Qed.
Print Assumptions C07_transcript_determines_conversation.

Theorem C07_matched_session_agrees :
  forall E Sc Pk Sk (CS : Suite E Sc Pk Sk), GroupLaws CS ->
  forall tape req l2 cnonce ce cs ss u s ctx st ke2 rest dbg,
    vk CS ce -> vk CS cs -> vk CS ss ->
    generate_ke2 CS (private_key_ops (ke CS)) tape req l2
                 {| k1_nonce := cnonce; k1_client_e_pk := k_pub (ke CS) ce |} (k_pub (ke CS) cs) ss u s ctx
      = Ok (st, ke2, rest, dbg) ->
    exists dbg',
      generate_ke3 CS l2 ke2 {| k1s_client_e_sk := ce; k1s_nonce := cnonce |} req (k_pub (ke CS) ss) cs u s ctx
        = Ok (sl_session_key st, {| cf_mac := h_hmac (hash CS) (sl_km3 st) (sl_hashed_transcript st) |}, dbg') /\
      server_login_finish CS st {| cf_mac := h_hmac (hash CS) (sl_km3 st) (sl_hashed_transcript st) |}
        = Ok (sl_session_key st).
Proof. exact @ke_agreement. Qed.
Print Assumptions C07_matched_session_agrees.

Theorem C07_session_randomness_from_own_tape_range :
  forall E Sc Pk Sk (CS : Suite E Sc Pk Sk) S (SK : SkOps Pk S) tape setup file rq cred ctx ids st resp rest dbg,
    server_login_start CS SK tape setup file rq cred ctx ids = Ok (st, resp, rest, dbg) ->
    exists fmk eseed,
      tape = fmk ++ cr_masking_nonce resp ++ eseed ++ k2_nonce (cr_ke2 resp) ++ rest /\
      length fmk = (match file with Some _ => 0 | None => h_len (hash CS) end) /\
      length (cr_masking_nonce resp) = KE_NONCE_LEN /\ length eseed = k_Nsk (ke CS) /\
      length (k2_nonce (cr_ke2 resp)) = KE_NONCE_LEN /\
      (exists esk, k_derive (ke CS) (hash CS) (o_id (oprf CS)) eseed = Some esk /\
                   k2_server_e_pk (cr_ke2 resp) = k_pub (ke CS) esk).
Proof. exact @server_login_start_layout. Qed.
Print Assumptions C07_session_randomness_from_own_tape_range.

Theorem C07_accepted_response_matches_a_server_session :
  forall E Sc Pk Sk (CS : Suite E Sc Pk Sk), HashLaws (hash CS) ->
  forall a b c pre sk km2 km3 hs a' b' c' pre' sk' km2' km3' hs',
    derive_3dh_keys CS a b c (h_hash (hash CS) pre) = Ok (sk, km2, km3, hs) ->
    derive_3dh_keys CS a' b' c' (h_hash (hash CS) pre') = Ok (sk', km2', km3', hs') ->
    h_hmac (hash CS) km2 (h_hash (hash CS) pre) = h_hmac (hash CS) km2' (h_hash (hash CS) pre') ->
    (pre = pre' /\ a ++ b ++ c = a' ++ b' ++ c' /\ sk = sk' /\ km3 = km3') \/ Bad (hash CS).
Proof. exact @equal_server_mac_equal_transcript. Qed.
Print Assumptions C07_accepted_response_matches_a_server_session.

Theorem C07_equal_transcripts_same_conversation :
  forall ctx ids cpk spk u s req l2 n e pre ctx' ids' cpk' spk' u' s' req' l2' n' e',
    bytestrings_from_identifiers ids cpk spk = Ok (u, s) ->
    bytestrings_from_identifiers ids' cpk' spk' = Ok (u', s') ->
    length req = length req' -> length l2 = length l2' -> length n = length n' ->
    preamble ctx u req s l2 n e = Ok pre ->
    preamble ctx' u' req' s' l2' n' e' = Ok pre ->
    ctx = ctx' /\ effective (id_client ids) cpk = effective (id_client ids') cpk' /\
    effective (id_server ids) spk = effective (id_server ids') spk' /\
    req = req' /\ l2 = l2' /\ n = n' /\ e = e'.
Proof. exact @equal_transcripts_same_conversation. Qed.
Print Assumptions C07_equal_transcripts_same_conversation.

Theorem C07_accepted_finalization_matches_the_client_run :
  forall E Sc Pk Sk (CS : Suite E Sc Pk Sk) st fin k pre mac km3c prec macc,
    sl_hashed_transcript st = h_hash (hash CS) (pre ++ mac) ->
    cf_mac fin = h_hmac (hash CS) km3c (h_hash (hash CS) (prec ++ macc)) ->
    length (sl_km3 st) = length km3c ->
    server_login_finish CS st fin = Ok k ->
    (sl_km3 st = km3c /\ pre ++ mac = prec ++ macc /\ k = sl_session_key st) \/ Bad (hash CS).
Proof. exact @accepted_finalization_same_transcript. Qed.
Print Assumptions C07_accepted_finalization_matches_the_client_run.

(* the same at the API level: ANY response r' that a client accepts and whose MAC field is the MAC of an honest
   server session's response is that session's response, the session consumed this client's own request, context
   agrees and the key the server will release is the client's key - or a collision is exhibited.  The three
   fixed-length parts of the transcript (request, response without the key-exchange message, server nonce) are compared
   under equal lengths: premises, since the model's messages are structured values whose fields may have any length
   (decoded messages have the suite's lengths) *)
From OKE Require Import ClientAccept.
Theorem C07_accepted_response_is_that_sessions :
  forall E Sc Pk Sk (CS : Suite E Sc Pk Sk), HashLaws (hash CS) -> GroupLaws CS ->
  forall tape (setup : ServerSetup Pk Sk Sk) file rq cred ctx_s ids_s slog resp rest dbg
         clog pw r' ctx_c ids_c ksf fin sk ek spk dbgc,
    server_login_start CS (private_key_ops (ke CS)) tape setup (Some file) rq cred ctx_s ids_s = Ok (slog, resp, rest, dbg) ->
    client_login_finish CS clog pw r' ctx_c ids_c ksf = Ok (fin, sk, ek, spk, dbgc) ->
    k2_mac (cr_ke2 r') = k2_mac (cr_ke2 resp) ->
    length (client_request_bytes CS clog) = length (server_request_bytes CS rq) ->
    length (client_l2 CS r') = length (client_l2 CS resp) ->
    length (k2_nonce (cr_ke2 r')) = length (k2_nonce (cr_ke2 resp)) ->
    (client_request_bytes CS clog = server_request_bytes CS rq /\
     client_l2 CS r' = client_l2 CS resp /\
     k2_nonce (cr_ke2 r') = k2_nonce (cr_ke2 resp) /\
     k_ser_pk (ke CS) (k2_server_e_pk (cr_ke2 r')) = k_ser_pk (ke CS) (k2_server_e_pk (cr_ke2 resp)) /\
     match ctx_c with Some c => c | None => nil end = match ctx_s with Some c => c | None => nil end /\
     sk = sl_session_key slog)
    \/ Bad (hash CS).
Proof. exact @accepted_response_is_that_sessions. Qed.
Print Assumptions C07_accepted_response_is_that_sessions.

(* distinct completed sessions have distinct session keys: equal keys force equal transcripts - the same client
   nonce and key share (inside the request), the same server nonce and key share - or a collision is exhibited;
   nonces of different sessions are copies of different tape ranges (C17) *)
From OKE Require Import Freshness.
Theorem C07_equal_session_keys_equal_nonces :
  forall E Sc Pk Sk (CS : Suite E Sc Pk Sk), HashLaws (hash CS) ->
  forall a b c sk km2 km3 hs a' b' c' sk' km2' km3' hs'
         ctx u req s l2 n e pre ctx' u' req' s' l2' n' e' pre' iu is_ iu' is_',
    lenprefix 2 iu = Some u -> lenprefix 2 is_ = Some s -> lenprefix 2 iu' = Some u' -> lenprefix 2 is_' = Some s' ->
    length req = length req' -> length l2 = length l2' -> length n = length n' ->
    preamble ctx u req s l2 n e = Ok pre -> preamble ctx' u' req' s' l2' n' e' = Ok pre' ->
    derive_3dh_keys CS a b c (h_hash (hash CS) pre) = Ok (sk, km2, km3, hs) ->
    derive_3dh_keys CS a' b' c' (h_hash (hash CS) pre') = Ok (sk', km2', km3', hs') ->
    sk = sk' -> (req = req' /\ n = n' /\ e = e') \/ Bad (hash CS).
Proof. exact @equal_session_keys_equal_nonces. Qed.
Print Assumptions C07_equal_session_keys_equal_nonces.


(* ---- histories: every reachable world *)
From OKE Require Import World WorldInv.
Theorem C07_invariant_in_every_reachable_world :
  forall E Sc Pk Sk (CS : Suite E Sc Pk Sk) setup tape (ops : list (op (E := E) (Pk := Pk))),
    Inv CS (run CS (@init E Sc Pk Sk setup tape) ops).
Proof. exact @reachable_inv. Qed.
Print Assumptions C07_invariant_in_every_reachable_world.

Theorem C07_matched_conversations_in_every_reachable_world :
  forall E Sc Pk Sk (CS : Suite E Sc Pk Sk), HashLaws (hash CS) -> GroupLaws CS ->
  forall setup tape ops d s f,
    let w := run CS (@init E Sc Pk Sk setup tape) ops in
    In d (w_cdone w) -> In s (w_srv w) -> sv_file s = Some f ->
    k2_mac (cr_ke2 (cd_resp d)) = k2_mac (cr_ke2 (sv_resp s)) ->
    forall c, nth_error (w_cli w) (cd_client d) = Some c ->
    length (client_request_bytes CS (cs_state c)) = length (server_request_bytes CS (sv_rq s)) ->
    length (client_l2 CS (cd_resp d)) = length (client_l2 CS (sv_resp s)) ->
    length (k2_nonce (cr_ke2 (cd_resp d))) = length (k2_nonce (cr_ke2 (sv_resp s))) ->
    (client_request_bytes CS (cs_state c) = server_request_bytes CS (sv_rq s) /\
     client_l2 CS (cd_resp d) = client_l2 CS (sv_resp s) /\
     k2_nonce (cr_ke2 (cd_resp d)) = k2_nonce (cr_ke2 (sv_resp s)) /\
     k_ser_pk (ke CS) (k2_server_e_pk (cr_ke2 (cd_resp d))) = k_ser_pk (ke CS) (k2_server_e_pk (cr_ke2 (sv_resp s))) /\
     match cd_ctx d with Some x => x | None => nil end = match sv_ctx s with Some x => x | None => nil end /\
     cd_key d = sl_session_key (sv_state s))
    \/ Bad (hash CS).
Proof. exact @matched_conversations. Qed.
Print Assumptions C07_matched_conversations_in_every_reachable_world.

Theorem C07_server_completions_in_every_reachable_world :
  forall E Sc Pk Sk (CS : Suite E Sc Pk Sk) setup tape ops d,
    let w := run CS (@init E Sc Pk Sk setup tape) ops in
    In d (w_sdone w) ->
    exists s, nth_error (w_srv w) (sd_server d) = Some s /\
      cf_mac (sd_fin d) = h_hmac (hash CS) (sl_km3 (sv_state s)) (sl_hashed_transcript (sv_state s)) /\
      sd_key d = sl_session_key (sv_state s).
Proof. exact @server_completions. Qed.
Print Assumptions C07_server_completions_in_every_reachable_world.


(* The theorems above that assume GroupLaws, at each of the 20 concrete suites, CurveLaws in place of GroupLaws
   (Theory/Concrete20.v). *)
From OKE Require Import CodecsConcrete GroupSplit Concrete20.

Definition C07_matched_session_agrees_statement {E Sc Pk Sk} (CS : Suite E Sc Pk Sk) : Prop :=
  forall tape req l2 cnonce ce cs ss u s ctx st ke2 rest dbg,
    vk CS ce -> vk CS cs -> vk CS ss ->
    generate_ke2 CS (private_key_ops (ke CS)) tape req l2
                 {| k1_nonce := cnonce; k1_client_e_pk := k_pub (ke CS) ce |} (k_pub (ke CS) cs) ss u s ctx
      = Ok (st, ke2, rest, dbg) ->
    exists dbg',
      generate_ke3 CS l2 ke2 {| k1s_client_e_sk := ce; k1s_nonce := cnonce |} req (k_pub (ke CS) ss) cs u s ctx
        = Ok (sl_session_key st, {| cf_mac := h_hmac (hash CS) (sl_km3 st) (sl_hashed_transcript st) |}, dbg') /\
      server_login_finish CS st {| cf_mac := h_hmac (hash CS) (sl_km3 st) (sl_hashed_transcript st) |}
        = Ok (sl_session_key st).
Theorem C07_matched_session_agrees_at_each_of_the_20_suites : all_suites (fun _ _ _ _ CS => CurveLaws CS -> C07_matched_session_agrees_statement CS).
Proof. apply at_the_20_suites_g. exact C07_matched_session_agrees. Qed.
Print Assumptions C07_matched_session_agrees_at_each_of_the_20_suites.

Definition C07_accepted_response_is_that_sessions_statement {E Sc Pk Sk} (CS : Suite E Sc Pk Sk) : Prop :=
  forall tape (setup : ServerSetup Pk Sk Sk) file rq cred ctx_s ids_s slog resp rest dbg
         clog pw r' ctx_c ids_c ksf fin sk ek spk dbgc,
    server_login_start CS (private_key_ops (ke CS)) tape setup (Some file) rq cred ctx_s ids_s = Ok (slog, resp, rest, dbg) ->
    client_login_finish CS clog pw r' ctx_c ids_c ksf = Ok (fin, sk, ek, spk, dbgc) ->
    k2_mac (cr_ke2 r') = k2_mac (cr_ke2 resp) ->
    length (client_request_bytes CS clog) = length (server_request_bytes CS rq) ->
    length (client_l2 CS r') = length (client_l2 CS resp) ->
    length (k2_nonce (cr_ke2 r')) = length (k2_nonce (cr_ke2 resp)) ->
    (client_request_bytes CS clog = server_request_bytes CS rq /\
     client_l2 CS r' = client_l2 CS resp /\
     k2_nonce (cr_ke2 r') = k2_nonce (cr_ke2 resp) /\
     k_ser_pk (ke CS) (k2_server_e_pk (cr_ke2 r')) = k_ser_pk (ke CS) (k2_server_e_pk (cr_ke2 resp)) /\
     match ctx_c with Some c => c | None => nil end = match ctx_s with Some c => c | None => nil end /\
     sk = sl_session_key slog)
    \/ Bad (hash CS).
Theorem C07_accepted_response_is_that_sessions_at_each_of_the_20_suites : all_suites (fun _ _ _ _ CS => CurveLaws CS -> C07_accepted_response_is_that_sessions_statement CS).
Proof. apply at_the_20_suites. exact C07_accepted_response_is_that_sessions. Qed.
Print Assumptions C07_accepted_response_is_that_sessions_at_each_of_the_20_suites.

Definition C07_matched_conversations_in_every_reachable_world_statement {E Sc Pk Sk} (CS : Suite E Sc Pk Sk) : Prop :=
  forall setup tape ops d s f,
    let w := run CS (@init E Sc Pk Sk setup tape) ops in
    In d (w_cdone w) -> In s (w_srv w) -> sv_file s = Some f ->
    k2_mac (cr_ke2 (cd_resp d)) = k2_mac (cr_ke2 (sv_resp s)) ->
    forall c, nth_error (w_cli w) (cd_client d) = Some c ->
    length (client_request_bytes CS (cs_state c)) = length (server_request_bytes CS (sv_rq s)) ->
    length (client_l2 CS (cd_resp d)) = length (client_l2 CS (sv_resp s)) ->
    length (k2_nonce (cr_ke2 (cd_resp d))) = length (k2_nonce (cr_ke2 (sv_resp s))) ->
    (client_request_bytes CS (cs_state c) = server_request_bytes CS (sv_rq s) /\
     client_l2 CS (cd_resp d) = client_l2 CS (sv_resp s) /\
     k2_nonce (cr_ke2 (cd_resp d)) = k2_nonce (cr_ke2 (sv_resp s)) /\
     k_ser_pk (ke CS) (k2_server_e_pk (cr_ke2 (cd_resp d))) = k_ser_pk (ke CS) (k2_server_e_pk (cr_ke2 (sv_resp s))) /\
     match cd_ctx d with Some x => x | None => nil end = match sv_ctx s with Some x => x | None => nil end /\
     cd_key d = sl_session_key (sv_state s))
    \/ Bad (hash CS).
Theorem C07_matched_conversations_in_every_reachable_world_at_each_of_the_20_suites : all_suites (fun _ _ _ _ CS => CurveLaws CS -> C07_matched_conversations_in_every_reachable_world_statement CS).
Proof. apply at_the_20_suites. exact C07_matched_conversations_in_every_reachable_world. Qed.
Print Assumptions C07_matched_conversations_in_every_reachable_world_at_each_of_the_20_suites.
