(* C14 - the OPRF is oblivious and keyed per credential.  Statements only; proofs in Theory/Honest.v,
   Theory/Oblivious.v, Theory/Accept.v, Theory/Steps.v, Theory/Transcript.v, Theory/KeySeparation.v,
   Theory/WrongCredential.v. *)
From Coq Require Import List.
From OKE Require Import Suite Voprf Messages Opaque Laws Honest Oblivious Accept Transcript Steps.

(* what the client derives depends on the password, the OPRF key and the stretching function - never on the blind *)
Theorem C14_blind_independent :
  forall E Sc Pk Sk (CS : Suite E Sc Pk Sk), GroupLaws CS ->
  forall pw r k ksf rp,
    ve CS (o_h2g (oprf CS) pw (dst_hash_to_group (oprf CS))) -> vs CS r -> vs CS k ->
    get_password_derived_key CS pw r
      (o_mul (oprf CS) (o_mul (oprf CS) (o_h2g (oprf CS) pw (dst_hash_to_group (oprf CS))) r) k) ksf = Ok rp ->
    forall r', vs CS r' ->
      get_password_derived_key CS pw r'
        (o_mul (oprf CS) (o_mul (oprf CS) (o_h2g (oprf CS) pw (dst_hash_to_group (oprf CS))) r') k) ksf = Ok rp.
Proof. exact @rpwd_unblinded. Qed.
Print Assumptions C14_blind_independent.

(* re-registering gives the same masking key *)
Theorem C14_reregistration_same_masking_key :
  forall E Sc Pk Sk (CS : Suite E Sc Pk Sk), GroupLaws CS ->
  forall (setup : ServerSetup Pk Sk Sk) pw cred ids ksf ta ta' tb tb' creg rq r1 rr up ek spk r2 creg' rq' r1' rr' up' ek' spk' r2',
    ve CS (o_h2g (oprf CS) pw (dst_hash_to_group (oprf CS))) ->
    client_registration_start CS ta pw = Ok (creg, rq, r1) ->
    server_registration_start CS setup rq cred = Ok rr ->
    client_registration_finish CS creg tb pw rr ids ksf = Ok (up, ek, spk, r2) ->
    client_registration_start CS ta' pw = Ok (creg', rq', r1') ->
    server_registration_start CS setup rq' cred = Ok rr' ->
    client_registration_finish CS creg' tb' pw rr' ids ksf = Ok (up', ek', spk', r2') ->
    ru_masking_key up = ru_masking_key up'.
Proof. exact @reregistration_same_masking_key. Qed.
Print Assumptions C14_reregistration_same_masking_key.

(* the server's evaluation is a deterministic function of (seed, credential identifier, request):
   the same function at registration and at login, whatever the static key and the password file *)
Theorem C14_evaluation_at_registration :
  forall E Sc Pk Sk (CS : Suite E Sc Pk Sk) S (setup : ServerSetup Pk Sk S) m cred r,
    server_registration_start CS setup m cred = Ok r ->
    server_evaluate CS (ss_oprf_seed setup) cred (rq_blinded m) = Ok (rr_eval r) /\
    rr_server_s_pk r = kp_pk (ss_keypair setup).
Proof. exact @server_registration_start_Ok. Qed.
Print Assumptions C14_evaluation_at_registration.

Theorem C14_evaluation_at_login :
  forall E Sc Pk Sk (CS : Suite E Sc Pk Sk) S (SK : SkOps Pk S) tape (setup : ServerSetup Pk Sk S) file rq cred ctx ids st resp rest dbg,
    server_login_start CS SK tape setup file rq cred ctx ids = Ok (st, resp, rest, dbg) ->
    server_evaluate CS (ss_oprf_seed setup) cred (cq_blinded rq) = Ok (cr_eval resp).
Proof. exact @login_start_evaluation. Qed.
Print Assumptions C14_evaluation_at_login.

(* the per-credential key is derived from an injective encoding of the credential identifier *)
Theorem C14_credential_identifier_injective :
  forall cred cred', cred ++ Generated.STR_OPRF_KEY = cred' ++ Generated.STR_OPRF_KEY -> cred = cred'.
Proof. exact oprf_key_info_injective. Qed.
Print Assumptions C14_credential_identifier_injective.


(* keyed per credential: two different credential identifiers under one seed get the same OPRF key only if
   HKDF-Expand collides on the two infos or the OPRF's DeriveKeyPair collides on two seeds (witnesses exhibited) *)
From OKE Require Import Bad KeySeparation.
Theorem C14_credential_identifiers_separate_keys :
  forall E Sc Pk Sk (CS : Suite E Sc Pk Sk), GroupLaws CS ->
  forall seed cred cred' k,
    oprf_key CS seed cred = Ok k -> oprf_key CS seed cred' = Ok k -> cred <> cred' ->
    BadS CS \/ BadOprfDerive CS.
Proof. exact @credential_identifiers_separate_keys. Qed.
Print Assumptions C14_credential_identifiers_separate_keys.

(* ... and end to end: a record registered under one credential identifier does not open when the server evaluates the
   login under another one (same setup, same password), unless a collision is exhibited.  [action_free]: the scalar
   action of the OPRF group is free on valid elements and scalars (proved for the toy suite). *)
From OKE Require Import WrongCredential.
Theorem C14_record_only_opens_under_its_credential_identifier :
  forall E Sc Pk Sk (CS : Suite E Sc Pk Sk), HashLaws (hash CS) -> GroupLaws CS ->
  (forall a b : Sk, {a = b} + {a <> b}) ->
  (forall P a b, ve CS P -> vs CS a -> vs CS b -> o_mul (oprf CS) P a = o_mul (oprf CS) P b -> a = b) ->
  forall tape setup t1 pw creg rq t2 cred rr ids ksf upload ek spk t3 cred' clog ke1 t4 ctx slog ke2 t5 dbg out,
    ve CS (o_h2g (oprf CS) pw (dst_hash_to_group (oprf CS))) ->
    server_setup_new CS tape = Ok (setup, t1) ->
    client_registration_start CS t1 pw = Ok (creg, rq, t2) ->
    server_registration_start CS setup rq cred = Ok rr ->
    client_registration_finish CS creg t2 pw rr ids ksf = Ok (upload, ek, spk, t3) ->
    cred' <> cred ->
    client_login_start CS t3 pw = Ok (clog, ke1, t4) ->
    server_login_start CS (private_key_ops (ke CS)) t4 setup (Some (server_registration_finish upload)) ke1 cred' ctx ids
      = Ok (slog, ke2, t5, dbg) ->
    client_login_finish CS clog pw ke2 ctx ids ksf = Ok out ->
    BadS CS \/ BadOprfDerive CS.
Proof. exact @other_credential_identifier_never_accepted. Qed.
Print Assumptions C14_record_only_opens_under_its_credential_identifier.


(* The theorems above that assume GroupLaws, at each of the 20 concrete suites, CurveLaws in place of GroupLaws
   (Theory/Concrete20.v). The last statement keeps, inside it, decidable equality on Sk and the free scalar action. *)
From OKE Require Import CodecsConcrete GroupSplit Concrete20.

Definition C14_blind_independent_statement {E Sc Pk Sk} (CS : Suite E Sc Pk Sk) : Prop :=
  forall pw r k ksf rp,
    ve CS (o_h2g (oprf CS) pw (dst_hash_to_group (oprf CS))) -> vs CS r -> vs CS k ->
    get_password_derived_key CS pw r
      (o_mul (oprf CS) (o_mul (oprf CS) (o_h2g (oprf CS) pw (dst_hash_to_group (oprf CS))) r) k) ksf = Ok rp ->
    forall r', vs CS r' ->
      get_password_derived_key CS pw r'
        (o_mul (oprf CS) (o_mul (oprf CS) (o_h2g (oprf CS) pw (dst_hash_to_group (oprf CS))) r') k) ksf = Ok rp.
Theorem C14_blind_independent_at_each_of_the_20_suites : all_suites (fun _ _ _ _ CS => CurveLaws CS -> C14_blind_independent_statement CS).
Proof. apply at_the_20_suites_g. exact C14_blind_independent. Qed.
Print Assumptions C14_blind_independent_at_each_of_the_20_suites.

Definition C14_reregistration_same_masking_key_statement {E Sc Pk Sk} (CS : Suite E Sc Pk Sk) : Prop :=
  forall (setup : ServerSetup Pk Sk Sk) pw cred ids ksf ta ta' tb tb' creg rq r1 rr up ek spk r2 creg' rq' r1' rr' up' ek' spk' r2',
    ve CS (o_h2g (oprf CS) pw (dst_hash_to_group (oprf CS))) ->
    client_registration_start CS ta pw = Ok (creg, rq, r1) ->
    server_registration_start CS setup rq cred = Ok rr ->
    client_registration_finish CS creg tb pw rr ids ksf = Ok (up, ek, spk, r2) ->
    client_registration_start CS ta' pw = Ok (creg', rq', r1') ->
    server_registration_start CS setup rq' cred = Ok rr' ->
    client_registration_finish CS creg' tb' pw rr' ids ksf = Ok (up', ek', spk', r2') ->
    ru_masking_key up = ru_masking_key up'.
Theorem C14_reregistration_same_masking_key_at_each_of_the_20_suites : all_suites (fun _ _ _ _ CS => CurveLaws CS -> C14_reregistration_same_masking_key_statement CS).
Proof. apply at_the_20_suites_g. exact C14_reregistration_same_masking_key. Qed.
Print Assumptions C14_reregistration_same_masking_key_at_each_of_the_20_suites.

Definition C14_credential_identifiers_separate_keys_statement {E Sc Pk Sk} (CS : Suite E Sc Pk Sk) : Prop :=
  forall seed cred cred' k,
    oprf_key CS seed cred = Ok k -> oprf_key CS seed cred' = Ok k -> cred <> cred' ->
    BadS CS \/ BadOprfDerive CS.
Theorem C14_credential_identifiers_separate_keys_at_each_of_the_20_suites : all_suites (fun _ _ _ _ CS => CurveLaws CS -> C14_credential_identifiers_separate_keys_statement CS).
Proof. apply at_the_20_suites_g. exact C14_credential_identifiers_separate_keys. Qed.
Print Assumptions C14_credential_identifiers_separate_keys_at_each_of_the_20_suites.

Definition C14_record_only_opens_under_its_credential_identifier_statement {E Sc Pk Sk} (CS : Suite E Sc Pk Sk) : Prop :=
  (forall a b : Sk, {a = b} + {a <> b}) ->
  (forall P a b, ve CS P -> vs CS a -> vs CS b -> o_mul (oprf CS) P a = o_mul (oprf CS) P b -> a = b) ->
  forall tape setup t1 pw creg rq t2 cred rr ids ksf upload ek spk t3 cred' clog ke1 t4 ctx slog ke2 t5 dbg out,
    ve CS (o_h2g (oprf CS) pw (dst_hash_to_group (oprf CS))) ->
    server_setup_new CS tape = Ok (setup, t1) ->
    client_registration_start CS t1 pw = Ok (creg, rq, t2) ->
    server_registration_start CS setup rq cred = Ok rr ->
    client_registration_finish CS creg t2 pw rr ids ksf = Ok (upload, ek, spk, t3) ->
    cred' <> cred ->
    client_login_start CS t3 pw = Ok (clog, ke1, t4) ->
    server_login_start CS (private_key_ops (ke CS)) t4 setup (Some (server_registration_finish upload)) ke1 cred' ctx ids
      = Ok (slog, ke2, t5, dbg) ->
    client_login_finish CS clog pw ke2 ctx ids ksf = Ok out ->
    BadS CS \/ BadOprfDerive CS.
Theorem C14_record_only_opens_under_its_credential_identifier_at_each_of_the_20_suites : all_suites (fun _ _ _ _ CS => CurveLaws CS -> C14_record_only_opens_under_its_credential_identifier_statement CS).
Proof. apply at_the_20_suites. exact C14_record_only_opens_under_its_credential_identifier. Qed.
Print Assumptions C14_record_only_opens_under_its_credential_identifier_at_each_of_the_20_suites.
