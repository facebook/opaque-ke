(* C01 - honest registration + login always agree on keys.  Statement only; proof in
   Theory/Honest.v (composition of Theory/Layers.v).
   Generic in the suite record: holds for every instantiation satisfying HashLaws and
   GroupLaws, i.e. for all 20 concrete suites GIVEN the group laws of the concrete curves
   (a hypothesis, DESIGN.md 6; proved for the toy suite), for every password, credential
   identifier, identities, context, key-stretching instance and random tape. *)
From Coq Require Import List.
From OKE Require Import Bytes Suite Voprf Messages TripleDH Opaque Laws Honest.

Theorem C01_honest_login_agrees :
  forall E Sc Pk Sk (CS : Suite E Sc Pk Sk), HashLaws (hash CS) -> GroupLaws CS ->
  forall tape setup t1 pw creg rq t2 cred rr ids ksf upload ek spk t3 clog ke1 t4 ctx slog ke2 t5 dbg,
    (* non-degeneracy: hash-to-group did not hit the identity; the evaluation is not the reflected request *)
    ve CS (o_h2g (oprf CS) pw (dst_hash_to_group (oprf CS))) ->
    (* the steps up to the server's response ran (their only failures are resource / degenerate ones) *)
    server_setup_new CS tape = Ok (setup, t1) ->
    client_registration_start CS t1 pw = Ok (creg, rq, t2) ->
    server_registration_start CS setup rq cred = Ok rr ->
    client_registration_finish CS creg t2 pw rr ids ksf = Ok (upload, ek, spk, t3) ->
    client_login_start CS t3 pw = Ok (clog, ke1, t4) ->
    server_login_start CS (private_key_ops (ke CS)) t4 setup (Some (server_registration_finish upload)) ke1 cred ctx ids
      = Ok (slog, ke2, t5, dbg) ->
    o_eqb (oprf CS) (cq_blinded ke1) (cr_eval ke2) = false ->
    (* then the client accepts, the server accepts the client's finalization, both hold the same session key,
       the client gets the registration's export key [ek] and the server public key [spk] it saw at registration,
       which is the public key of the setup's static key *)
    exists ke3 sk dbg',
      client_login_finish CS clog pw ke2 ctx ids ksf = Ok (ke3, sk, ek, spk, dbg') /\
      server_login_finish CS slog ke3 = Ok sk /\
      spk = kp_pk (ss_keypair setup) /\ kp_pk (ss_keypair setup) = k_pub (ke CS) (kp_sk (ss_keypair setup)).
Proof. exact @honest_login_agrees. Qed.
Print Assumptions C01_honest_login_agrees.

(* the output of the OPRF does not depend on the blind (used above; also C14) *)
Theorem C01_oprf_unblind :
  forall E Sc Pk Sk (CS : Suite E Sc Pk Sk), GroupLaws CS ->
  forall input r k P, ve CS P -> vs CS r -> vs CS k ->
    voprf_finalize (hash CS) (oprf CS) r input (o_mul (oprf CS) (o_mul (oprf CS) P r) k) =
    match i2osp_nat 2 (length input) with
    | None => Err (ELibrary (LOprfError OInput))
    | Some len => Ok (h_hash (hash CS) (len ++ input ++ be_bytes 2 (BinNat.N.of_nat (o_Noe (oprf CS))) ++
                                        o_ser_e (oprf CS) (o_mul (oprf CS) P k) ++ Labels.STR_FINALIZE))
    end.
Proof. exact @Layers.oprf_unblind. Qed.
Print Assumptions C01_oprf_unblind.

(* both sides of 3DH derive the same keys and accept each other's MAC *)
Theorem C01_ke_agreement :
  forall E Sc Pk Sk (CS : Suite E Sc Pk Sk), GroupLaws CS ->
  forall tape req l2 cnonce ce cs ss u s ctx st ke2 rest dbg,
    vk CS ce -> vk CS cs -> vk CS ss ->
    generate_ke2 CS (private_key_ops (ke CS)) tape req l2
                 {| k1_nonce := cnonce; k1_client_e_pk := k_pub (ke CS) ce |} (k_pub (ke CS) cs) ss u s ctx
      = Ok (st, ke2, rest, dbg) ->
    exists dbg',
      generate_ke3 CS l2 ke2 {| k1s_client_e_sk := ce; k1s_nonce := cnonce |} req (k_pub (ke CS) ss) cs u s ctx
        = Ok (sl_session_key st, {| cf_mac := h_hmac (hash CS) (sl_km3 st) (sl_hashed_transcript st) |}, dbg') /\
      server_login_finish CS st {| cf_mac := h_hmac (hash CS) (sl_km3 st) (sl_hashed_transcript st) |}
        = Ok (sl_session_key st).
Proof. exact @Layers.ke_agreement. Qed.
Print Assumptions C01_ke_agreement.


(* what is PROVED about each of the 20 concrete suites (hash output lengths, canonical element codecs, sizes):
   (what is left to assume about them is CurveLaws, below) *)
From OKE Require Import CodecsConcrete SuitesLaws.
Theorem C01_laws_proved_for_the_20_suites : all_suites (fun _ _ _ _ CS => proved_laws CS).
Proof. exact proved_laws_20. Qed.
Print Assumptions C01_laws_proved_for_the_20_suites.


(* the same statement at each of the 20 concrete suites, CurveLaws in place of GroupLaws (Theory/Concrete20.v) *)
From OKE Require Import GroupSplit Concrete20.
Definition C01_honest_login_agrees_statement {E Sc Pk Sk} (CS : Suite E Sc Pk Sk) : Prop :=
  forall tape setup t1 pw creg rq t2 cred rr ids ksf upload ek spk t3 clog ke1 t4 ctx slog ke2 t5 dbg,
    (* non-degeneracy: hash-to-group did not hit the identity; the evaluation is not the reflected request *)
    ve CS (o_h2g (oprf CS) pw (dst_hash_to_group (oprf CS))) ->
    (* the steps up to the server's response ran (their only failures are resource / degenerate ones) *)
    server_setup_new CS tape = Ok (setup, t1) ->
    client_registration_start CS t1 pw = Ok (creg, rq, t2) ->
    server_registration_start CS setup rq cred = Ok rr ->
    client_registration_finish CS creg t2 pw rr ids ksf = Ok (upload, ek, spk, t3) ->
    client_login_start CS t3 pw = Ok (clog, ke1, t4) ->
    server_login_start CS (private_key_ops (ke CS)) t4 setup (Some (server_registration_finish upload)) ke1 cred ctx ids
      = Ok (slog, ke2, t5, dbg) ->
    o_eqb (oprf CS) (cq_blinded ke1) (cr_eval ke2) = false ->
    (* then the client accepts, the server accepts the client's finalization, both hold the same session key,
       the client gets the registration's export key [ek] and the server public key [spk] it saw at registration,
       which is the public key of the setup's static key *)
    exists ke3 sk dbg',
      client_login_finish CS clog pw ke2 ctx ids ksf = Ok (ke3, sk, ek, spk, dbg') /\
      server_login_finish CS slog ke3 = Ok sk /\
      spk = kp_pk (ss_keypair setup) /\ kp_pk (ss_keypair setup) = k_pub (ke CS) (kp_sk (ss_keypair setup)).
Theorem C01_honest_login_agrees_at_each_of_the_20_suites :
  all_suites (fun _ _ _ _ CS => CurveLaws CS -> C01_honest_login_agrees_statement CS).
Proof. apply at_the_20_suites. exact C01_honest_login_agrees. Qed.
Print Assumptions C01_honest_login_agrees_at_each_of_the_20_suites.


(* further theorems above, restated at the 20 suites *)

Definition C01_oprf_unblind_statement {E Sc Pk Sk} (CS : Suite E Sc Pk Sk) : Prop :=
  forall input r k P, ve CS P -> vs CS r -> vs CS k ->
    voprf_finalize (hash CS) (oprf CS) r input (o_mul (oprf CS) (o_mul (oprf CS) P r) k) =
    match i2osp_nat 2 (length input) with
    | None => Err (ELibrary (LOprfError OInput))
    | Some len => Ok (h_hash (hash CS) (len ++ input ++ be_bytes 2 (BinNat.N.of_nat (o_Noe (oprf CS))) ++
                                        o_ser_e (oprf CS) (o_mul (oprf CS) P k) ++ Labels.STR_FINALIZE))
    end.
Theorem C01_oprf_unblind_at_each_of_the_20_suites : all_suites (fun _ _ _ _ CS => CurveLaws CS -> C01_oprf_unblind_statement CS).
Proof. apply at_the_20_suites_g. exact C01_oprf_unblind. Qed.
Print Assumptions C01_oprf_unblind_at_each_of_the_20_suites.

Definition C01_ke_agreement_statement {E Sc Pk Sk} (CS : Suite E Sc Pk Sk) : Prop :=
  forall tape req l2 cnonce ce cs ss u s ctx st ke2 rest dbg,
    vk CS ce -> vk CS cs -> vk CS ss ->
    generate_ke2 CS (private_key_ops (ke CS)) tape req l2
                 {| k1_nonce := cnonce; k1_client_e_pk := k_pub (ke CS) ce |} (k_pub (ke CS) cs) ss u s ctx
      = Ok (st, ke2, rest, dbg) ->
    exists dbg',
      generate_ke3 CS l2 ke2 {| k1s_client_e_sk := ce; k1s_nonce := cnonce |} req (k_pub (ke CS) ss) cs u s ctx
        = Ok (sl_session_key st, {| cf_mac := h_hmac (hash CS) (sl_km3 st) (sl_hashed_transcript st) |}, dbg') /\
      server_login_finish CS st {| cf_mac := h_hmac (hash CS) (sl_km3 st) (sl_hashed_transcript st) |}
        = Ok (sl_session_key st).
Theorem C01_ke_agreement_at_each_of_the_20_suites : all_suites (fun _ _ _ _ CS => CurveLaws CS -> C01_ke_agreement_statement CS).
Proof. apply at_the_20_suites_g. exact C01_ke_agreement. Qed.
Print Assumptions C01_ke_agreement_at_each_of_the_20_suites.

(* the main theorem with every step on a tape of its own (clients and servers have their own generators) *)
Theorem C01_honest_login_agrees_on_independent_tapes :
  forall E Sc Pk Sk (CS : Suite E Sc Pk Sk), HashLaws (hash CS) -> GroupLaws CS ->
  forall tape setup t1 tr pw creg rq t2 cred rr tf ids ksf upload ek spk t3 tc clog ke1 t4 tv ctx slog ke2 t5 dbg,
    ve CS (o_h2g (oprf CS) pw (dst_hash_to_group (oprf CS))) ->
    server_setup_new CS tape = Ok (setup, t1) ->
    client_registration_start CS tr pw = Ok (creg, rq, t2) ->
    server_registration_start CS setup rq cred = Ok rr ->
    client_registration_finish CS creg tf pw rr ids ksf = Ok (upload, ek, spk, t3) ->
    client_login_start CS tc pw = Ok (clog, ke1, t4) ->
    server_login_start CS (private_key_ops (ke CS)) tv setup (Some (server_registration_finish upload)) ke1 cred ctx ids
      = Ok (slog, ke2, t5, dbg) ->
    o_eqb (oprf CS) (cq_blinded ke1) (cr_eval ke2) = false ->
    exists ke3 sk dbg',
      client_login_finish CS clog pw ke2 ctx ids ksf = Ok (ke3, sk, ek, spk, dbg') /\
      server_login_finish CS slog ke3 = Ok sk /\
      spk = kp_pk (ss_keypair setup) /\ kp_pk (ss_keypair setup) = k_pub (ke CS) (kp_sk (ss_keypair setup)).
Proof. exact @honest_login_agrees_any_tapes. Qed.
Print Assumptions C01_honest_login_agrees_on_independent_tapes.

(* in ANY world the adversary can reach (Model/World.v: it schedules all parties and chooses every delivered message; one
   shared tape), an honestly routed login completes: if client session i belongs to a user registered under the world's
   setup and server session j was started for that user's record on i's own request, then j's response makes the client
   accept with the registration's export key and server key, and the client's finalization makes the server accept with the
   same session key - whatever else happened before *)
From OKE Require Import World CrashInv HonestWorld.
Theorem C01_honest_delivery_completes_in_any_reachable_world :
  forall E Sc Pk Sk (CS : Suite E Sc Pk Sk), HashLaws (hash CS) -> GroupLaws CS ->
  forall tape0 setup rest0 tape ops tr pw creg rq t2 cred rr tf ids upload ek spk t3 i c j s,
    server_setup_new CS tape0 = Ok (setup, rest0) ->
    (forall pw', In (OClientStart pw') ops -> good_pw CS pw') ->
    client_registration_start CS tr pw = Ok (creg, rq, t2) ->
    server_registration_start CS setup rq cred = Ok rr ->
    client_registration_finish CS creg tf pw rr ids None = Ok (upload, ek, spk, t3) ->
    let w := run CS (@init E Sc Pk Sk setup tape) ops in
    nth_error (w_cli w) i = Some c -> cs_pw c = pw ->
    nth_error (w_srv w) j = Some s ->
    sv_file s = Some (server_registration_finish upload) -> sv_cred s = cred -> sv_ids s = ids ->
    sv_rq s = cl_request (cs_state c) ->
    o_eqb (oprf CS) (cq_blinded (sv_rq s)) (cr_eval (sv_resp s)) = false ->
    exists fin key dbg,
      client_login_finish CS (cs_state c) pw (sv_resp s) (sv_ctx s) ids None = Ok (fin, key, ek, spk, dbg) /\
      server_login_finish CS (sv_state s) fin = Ok key.
Proof. exact @honest_delivery_completes. Qed.
Print Assumptions C01_honest_delivery_completes_in_any_reachable_world.

(* the two theorems above at the 20 suites *)

Definition C01_honest_login_agrees_on_independent_tapes_statement {E Sc Pk Sk} (CS : Suite E Sc Pk Sk) : Prop :=
  forall tape setup t1 tr pw creg rq t2 cred rr tf ids ksf upload ek spk t3 tc clog ke1 t4 tv ctx slog ke2 t5 dbg,
    ve CS (o_h2g (oprf CS) pw (dst_hash_to_group (oprf CS))) ->
    server_setup_new CS tape = Ok (setup, t1) ->
    client_registration_start CS tr pw = Ok (creg, rq, t2) ->
    server_registration_start CS setup rq cred = Ok rr ->
    client_registration_finish CS creg tf pw rr ids ksf = Ok (upload, ek, spk, t3) ->
    client_login_start CS tc pw = Ok (clog, ke1, t4) ->
    server_login_start CS (private_key_ops (ke CS)) tv setup (Some (server_registration_finish upload)) ke1 cred ctx ids
      = Ok (slog, ke2, t5, dbg) ->
    o_eqb (oprf CS) (cq_blinded ke1) (cr_eval ke2) = false ->
    exists ke3 sk dbg',
      client_login_finish CS clog pw ke2 ctx ids ksf = Ok (ke3, sk, ek, spk, dbg') /\
      server_login_finish CS slog ke3 = Ok sk /\
      spk = kp_pk (ss_keypair setup) /\ kp_pk (ss_keypair setup) = k_pub (ke CS) (kp_sk (ss_keypair setup)).
Theorem C01_honest_login_agrees_on_independent_tapes_at_each_of_the_20_suites : all_suites (fun _ _ _ _ CS => CurveLaws CS -> C01_honest_login_agrees_on_independent_tapes_statement CS).
Proof. apply at_the_20_suites. exact C01_honest_login_agrees_on_independent_tapes. Qed.
Print Assumptions C01_honest_login_agrees_on_independent_tapes_at_each_of_the_20_suites.

Definition C01_honest_delivery_completes_in_any_reachable_world_statement {E Sc Pk Sk} (CS : Suite E Sc Pk Sk) : Prop :=
  forall tape0 setup rest0 tape ops tr pw creg rq t2 cred rr tf ids upload ek spk t3 i c j s,
    server_setup_new CS tape0 = Ok (setup, rest0) ->
    (forall pw', In (OClientStart pw') ops -> good_pw CS pw') ->
    client_registration_start CS tr pw = Ok (creg, rq, t2) ->
    server_registration_start CS setup rq cred = Ok rr ->
    client_registration_finish CS creg tf pw rr ids None = Ok (upload, ek, spk, t3) ->
    let w := run CS (@init E Sc Pk Sk setup tape) ops in
    nth_error (w_cli w) i = Some c -> cs_pw c = pw ->
    nth_error (w_srv w) j = Some s ->
    sv_file s = Some (server_registration_finish upload) -> sv_cred s = cred -> sv_ids s = ids ->
    sv_rq s = cl_request (cs_state c) ->
    o_eqb (oprf CS) (cq_blinded (sv_rq s)) (cr_eval (sv_resp s)) = false ->
    exists fin key dbg,
      client_login_finish CS (cs_state c) pw (sv_resp s) (sv_ctx s) ids None = Ok (fin, key, ek, spk, dbg) /\
      server_login_finish CS (sv_state s) fin = Ok key.
Theorem C01_honest_delivery_completes_in_any_reachable_world_at_each_of_the_20_suites : all_suites (fun _ _ _ _ CS => CurveLaws CS -> C01_honest_delivery_completes_in_any_reachable_world_statement CS).
Proof. apply at_the_20_suites. exact C01_honest_delivery_completes_in_any_reachable_world. Qed.
Print Assumptions C01_honest_delivery_completes_in_any_reachable_world_at_each_of_the_20_suites.
