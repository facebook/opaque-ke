(* C13 - persisted state survives save / restart unchanged.  Statements only; proofs in Theory/Reload.v
   (from Theory/Roundtrip.v).  Each of the five persistence points, as produced by the API, decodes from
   its own native encoding to exactly itself; the next step is a function of that value, so a reload at
   any step boundary changes nothing observable.  serde (bincode / JSON) is not modelled: the harness
   performs the real round trips and the model predicts "no change" (correspondence part of the check). *)
From OKE Require Import Suite Voprf Messages Opaque Laws Reload.

Theorem C13_server_setup :
  forall E Sc Pk Sk (CS : Suite E Sc Pk Sk), GroupLaws CS -> forall tape setup rest,
    server_setup_new CS tape = Ok (setup, rest) ->
    server_setup_deserialize CS (private_key_ops (ke CS)) (server_setup_serialize CS (private_key_ops (ke CS)) setup) = Ok setup.
Proof. exact @reload_server_setup. Qed.
Print Assumptions C13_server_setup.

Theorem C13_client_registration_state :
  forall E Sc Pk Sk (CS : Suite E Sc Pk Sk), GroupLaws CS -> forall tape pw st m rest,
    ve CS (o_h2g (oprf CS) pw (dst_hash_to_group (oprf CS))) ->
    client_registration_start CS tape pw = Ok (st, m, rest) ->
    client_registration_deserialize CS (client_registration_serialize CS st) = Ok st /\
    registration_request_deserialize CS (registration_request_serialize CS m) = Ok m.
Proof. exact @reload_client_registration. Qed.
Print Assumptions C13_client_registration_state.

Theorem C13_password_file :
  forall E Sc Pk Sk (CS : Suite E Sc Pk Sk), HashLaws (hash CS) -> GroupLaws CS ->
  forall st tape pw rr ids ksf upload ek spk rest,
    client_registration_finish CS st tape pw rr ids ksf = Ok (upload, ek, spk, rest) ->
    registration_upload_deserialize CS (registration_upload_serialize CS (server_registration_finish upload))
      = Ok (server_registration_finish upload).
Proof. exact @reload_password_file. Qed.
Print Assumptions C13_password_file.

Theorem C13_client_login_state :
  forall E Sc Pk Sk (CS : Suite E Sc Pk Sk), GroupLaws CS -> forall tape pw st m rest,
    ve CS (o_h2g (oprf CS) pw (dst_hash_to_group (oprf CS))) ->
    client_login_start CS tape pw = Ok (st, m, rest) ->
    client_login_deserialize CS (client_login_serialize CS st) = Ok st /\
    credential_request_deserialize CS (credential_request_serialize CS m) = Ok m.
Proof. exact @reload_client_login. Qed.
Print Assumptions C13_client_login_state.

Theorem C13_server_login_state :
  forall E Sc Pk Sk (CS : Suite E Sc Pk Sk), HashLaws (hash CS) ->
  forall S (SK : SkOps Pk S) tape setup file rq cred ctx ids st resp rest dbg,
    server_login_start CS SK tape setup file rq cred ctx ids = Ok (st, resp, rest, dbg) ->
    server_login_deserialize CS (server_login_serialize st) = Ok st.
Proof. exact @reload_server_login. Qed.
Print Assumptions C13_server_login_state.


(* The theorems above that assume GroupLaws, at each of the 20 concrete suites, CurveLaws in place of GroupLaws
   (Theory/Concrete20.v). *)
From OKE Require Import CodecsConcrete GroupSplit Concrete20.

Definition C13_server_setup_statement {E Sc Pk Sk} (CS : Suite E Sc Pk Sk) : Prop :=
  forall tape setup rest,
    server_setup_new CS tape = Ok (setup, rest) ->
    server_setup_deserialize CS (private_key_ops (ke CS)) (server_setup_serialize CS (private_key_ops (ke CS)) setup) = Ok setup.
Theorem C13_server_setup_at_each_of_the_20_suites : all_suites (fun _ _ _ _ CS => CurveLaws CS -> C13_server_setup_statement CS).
Proof. apply at_the_20_suites_g. exact C13_server_setup. Qed.
Print Assumptions C13_server_setup_at_each_of_the_20_suites.

Definition C13_client_registration_state_statement {E Sc Pk Sk} (CS : Suite E Sc Pk Sk) : Prop :=
  forall tape pw st m rest,
    ve CS (o_h2g (oprf CS) pw (dst_hash_to_group (oprf CS))) ->
    client_registration_start CS tape pw = Ok (st, m, rest) ->
    client_registration_deserialize CS (client_registration_serialize CS st) = Ok st /\
    registration_request_deserialize CS (registration_request_serialize CS m) = Ok m.
Theorem C13_client_registration_state_at_each_of_the_20_suites : all_suites (fun _ _ _ _ CS => CurveLaws CS -> C13_client_registration_state_statement CS).
Proof. apply at_the_20_suites_g. exact C13_client_registration_state. Qed.
Print Assumptions C13_client_registration_state_at_each_of_the_20_suites.

Definition C13_password_file_statement {E Sc Pk Sk} (CS : Suite E Sc Pk Sk) : Prop :=
  forall st tape pw rr ids ksf upload ek spk rest,
    client_registration_finish CS st tape pw rr ids ksf = Ok (upload, ek, spk, rest) ->
    registration_upload_deserialize CS (registration_upload_serialize CS (server_registration_finish upload))
      = Ok (server_registration_finish upload).
Theorem C13_password_file_at_each_of_the_20_suites : all_suites (fun _ _ _ _ CS => CurveLaws CS -> C13_password_file_statement CS).
Proof. apply at_the_20_suites. exact C13_password_file. Qed.
Print Assumptions C13_password_file_at_each_of_the_20_suites.

Definition C13_client_login_state_statement {E Sc Pk Sk} (CS : Suite E Sc Pk Sk) : Prop :=
  forall tape pw st m rest,
    ve CS (o_h2g (oprf CS) pw (dst_hash_to_group (oprf CS))) ->
    client_login_start CS tape pw = Ok (st, m, rest) ->
    client_login_deserialize CS (client_login_serialize CS st) = Ok st /\
    credential_request_deserialize CS (credential_request_serialize CS m) = Ok m.
Theorem C13_client_login_state_at_each_of_the_20_suites : all_suites (fun _ _ _ _ CS => CurveLaws CS -> C13_client_login_state_statement CS).
Proof. apply at_the_20_suites_g. exact C13_client_login_state. Qed.
Print Assumptions C13_client_login_state_at_each_of_the_20_suites.

(* Over histories: crashes change nothing.
   The world of Model/WorldCrash.v: a network adversary schedules the parties and chooses every message; between any two
   steps the server may restart (setup restored from its serialization) and any pending server or client login session
   may be saved and restored.  For EVERY such history (any length, any crash points), every restore succeeds and the
   world reached - all pending states, all completed sessions with their keys, the tape - is exactly the world reached
   by the same history without the crashes.  [good_ops]: the passwords of the client sessions do not hash to the
   identity element. *)
From OKE Require Import World WorldCrash CrashInv.
Theorem C13_crashes_change_nothing_in_any_history :
  forall E Sc Pk Sk (CS : Suite E Sc Pk Sk), HashLaws (hash CS) -> GroupLaws CS ->
  forall tape0 setup rest0 tape ops,
    server_setup_new CS tape0 = Ok (setup, rest0) -> good_ops CS ops ->
    crun CS (init setup tape) ops = Ok (run CS (init setup tape) (erase ops)).
Proof. exact @crashes_change_nothing. Qed.
Print Assumptions C13_crashes_change_nothing_in_any_history.

Definition C13_crashes_change_nothing_in_any_history_statement {E Sc Pk Sk} (CS : Suite E Sc Pk Sk) : Prop :=
  forall tape0 setup rest0 tape ops,
    server_setup_new CS tape0 = Ok (setup, rest0) -> good_ops CS ops ->
    crun CS (init setup tape) ops = Ok (run CS (init setup tape) (erase ops)).
Theorem C13_crashes_change_nothing_in_any_history_at_each_of_the_20_suites : all_suites (fun _ _ _ _ CS => CurveLaws CS -> C13_crashes_change_nothing_in_any_history_statement CS).
Proof. apply at_the_20_suites. exact C13_crashes_change_nothing_in_any_history. Qed.
Print Assumptions C13_crashes_change_nothing_in_any_history_at_each_of_the_20_suites.
