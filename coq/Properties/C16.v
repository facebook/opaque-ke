(* C16 - the export key is stable, separated and never leaves the client.  PARTIAL (DESIGN.md C16):
   proved: the export key is Expand(randomized_pwd, envelope_nonce || "ExportKey", Nh) at seal and at
   open, so every successful login returns the registration's export key whatever the context, identities,
   session randomness or number of earlier logins; the labels that separate it from the other secrets
   derived under the same key are pairwise different (re-checked against /repo/src on every run).
   NOT proved: that equal-length fields of other kinds never coincide with a secret at unaligned offsets
   (a coincidence, not a collision): searched by the battery's substring scan. *)
From Coq Require Import List.
From OKE Require Import Suite Generated Hkdf Voprf Messages Envelope TripleDH Opaque Laws Honest Oblivious.

Theorem C16_formula_at_registration :
  forall E Sc Pk Sk (CS : Suite E Sc Pk Sk) tape rp spk ids env cpk ek rest,
    envelope_seal CS tape rp spk ids = Ok (env, cpk, ek, rest) ->
    hkdf_expand (hash CS) rp (env_nonce env ++ STR_EXPORT_KEY) (h_len (hash CS)) = Some ek.
Proof. exact @export_key_at_seal. Qed.
Print Assumptions C16_formula_at_registration.

Theorem C16_formula_at_login :
  forall E Sc Pk Sk (CS : Suite E Sc Pk Sk) env rp spk ids kp ek u s,
    envelope_open CS env rp spk ids = Ok (kp, ek, u, s) ->
    hkdf_expand (hash CS) rp (env_nonce env ++ STR_EXPORT_KEY) (h_len (hash CS)) = Some ek.
Proof. exact @export_key_at_open. Qed.
Print Assumptions C16_formula_at_login.

Theorem C16_stable_partial :
  forall E Sc Pk Sk (CS : Suite E Sc Pk Sk) tape rp spk ids env cpk ek rest spk' ids' kp ek' u s,
    envelope_seal CS tape rp spk ids = Ok (env, cpk, ek, rest) ->
    envelope_open CS env rp spk' ids' = Ok (kp, ek', u, s) -> ek' = ek.
Proof. exact @export_key_seal_open. Qed.
Print Assumptions C16_stable_partial.

(* a whole honest login returns the registration's export key: the [ek] of C01 *)
Theorem C16_login_returns_registration_export_key :
  forall E Sc Pk Sk (CS : Suite E Sc Pk Sk), HashLaws (hash CS) -> GroupLaws CS ->
  forall tape setup t1 pw creg rq t2 cred rr ids ksf upload ek spk t3 clog ke1 t4 ctx slog ke2 t5 dbg,
    ve CS (o_h2g (oprf CS) pw (dst_hash_to_group (oprf CS))) ->
    server_setup_new CS tape = Ok (setup, t1) ->
    client_registration_start CS t1 pw = Ok (creg, rq, t2) ->
    server_registration_start CS setup rq cred = Ok rr ->
    client_registration_finish CS creg t2 pw rr ids ksf = Ok (upload, ek, spk, t3) ->
    client_login_start CS t3 pw = Ok (clog, ke1, t4) ->
    server_login_start CS (private_key_ops (ke CS)) t4 setup (Some (server_registration_finish upload)) ke1 cred ctx ids
      = Ok (slog, ke2, t5, dbg) ->
    o_eqb (oprf CS) (cq_blinded ke1) (cr_eval ke2) = false ->
    exists ke3 sk dbg',
      client_login_finish CS clog pw ke2 ctx ids ksf = Ok (ke3, sk, ek, spk, dbg') /\
      server_login_finish CS slog ke3 = Ok sk /\
      spk = kp_pk (ss_keypair setup) /\ kp_pk (ss_keypair setup) = k_pub (ke CS) (kp_sk (ss_keypair setup)).
Proof. exact @honest_login_agrees. Qed.
Print Assumptions C16_login_returns_registration_export_key.

Theorem C16_labels_separated :
  STR_AUTH_KEY <> STR_EXPORT_KEY /\ STR_AUTH_KEY <> STR_PRIVATE_KEY /\ STR_EXPORT_KEY <> STR_PRIVATE_KEY /\
  STR_HANDSHAKE_SECRET <> STR_SESSION_KEY /\ STR_SERVER_MAC <> STR_CLIENT_MAC /\
  length STR_AUTH_KEY <> length STR_MASKING_KEY /\ length STR_EXPORT_KEY <> length STR_MASKING_KEY.
Proof. exact generated_labels_separated. Qed.
Print Assumptions C16_labels_separated.


(* separation (Theory/ExportKey.v): the export key equals the envelope's authentication key, the stored masking
   key, a session key, or the export key of another (randomized password, envelope nonce) - i.e. of another
   registration, password, user or server - only if an HMAC collision is exhibited *)
From OKE Require Import Bad ExportKey.
Theorem C16_separated_from_other_registrations :
  forall E Sc Pk Sk (CS : Suite E Sc Pk Sk), HashLaws (hash CS) ->
  forall rp nonce ak ek rp' nonce' ak' ek',
    length rp = length rp' -> length nonce = length nonce' ->
    envelope_keys CS rp nonce = Ok (ak, ek) -> envelope_keys CS rp' nonce' = Ok (ak', ek') ->
    ek = ek' -> (rp = rp' /\ nonce = nonce') \/ Bad (hash CS).
Proof. exact @export_keys_separated. Qed.
Print Assumptions C16_separated_from_other_registrations.

Theorem C16_not_the_auth_key :
  forall E Sc Pk Sk (CS : Suite E Sc Pk Sk), HashLaws (hash CS) ->
  forall rp nonce ak ek, envelope_keys CS rp nonce = Ok (ak, ek) -> ek = ak -> Bad (hash CS).
Proof. exact @export_key_is_not_auth_key. Qed.
Print Assumptions C16_not_the_auth_key.

Theorem C16_not_the_masking_key :
  forall E Sc Pk Sk (CS : Suite E Sc Pk Sk), HashLaws (hash CS) ->
  forall rp nonce ak ek mk,
    length nonce = ENVELOPE_NONCE_LEN ->
    envelope_keys CS rp nonce = Ok (ak, ek) ->
    hkdf_expand (hash CS) rp STR_MASKING_KEY (h_len (hash CS)) = Some mk -> ek = mk -> Bad (hash CS).
Proof. exact @export_key_is_not_masking_key. Qed.
Print Assumptions C16_not_the_masking_key.

Theorem C16_session_key_is_not_export_key :
  forall E Sc Pk Sk (CS : Suite E Sc Pk Sk), HashLaws (hash CS) ->
  forall rp nonce ak ek prk th sk,
    length nonce = ENVELOPE_NONCE_LEN -> length th = h_len (hash CS) -> length prk = length rp ->
    h_len (hash CS) <> 20 ->
    envelope_keys CS rp nonce = Ok (ak, ek) ->
    hkdf_expand_label CS prk STR_SESSION_KEY th = Ok sk -> sk = ek -> Bad (hash CS).
Proof. exact @session_key_is_not_export_key. Qed.
Print Assumptions C16_session_key_is_not_export_key.


(* The theorems above that assume GroupLaws, at each of the 20 concrete suites, CurveLaws in place of GroupLaws
   (Theory/Concrete20.v). *)
From OKE Require Import CodecsConcrete GroupSplit Concrete20.

Definition C16_login_returns_registration_export_key_statement {E Sc Pk Sk} (CS : Suite E Sc Pk Sk) : Prop :=
  forall tape setup t1 pw creg rq t2 cred rr ids ksf upload ek spk t3 clog ke1 t4 ctx slog ke2 t5 dbg,
    ve CS (o_h2g (oprf CS) pw (dst_hash_to_group (oprf CS))) ->
    server_setup_new CS tape = Ok (setup, t1) ->
    client_registration_start CS t1 pw = Ok (creg, rq, t2) ->
    server_registration_start CS setup rq cred = Ok rr ->
    client_registration_finish CS creg t2 pw rr ids ksf = Ok (upload, ek, spk, t3) ->
    client_login_start CS t3 pw = Ok (clog, ke1, t4) ->
    server_login_start CS (private_key_ops (ke CS)) t4 setup (Some (server_registration_finish upload)) ke1 cred ctx ids
      = Ok (slog, ke2, t5, dbg) ->
    o_eqb (oprf CS) (cq_blinded ke1) (cr_eval ke2) = false ->
    exists ke3 sk dbg',
      client_login_finish CS clog pw ke2 ctx ids ksf = Ok (ke3, sk, ek, spk, dbg') /\
      server_login_finish CS slog ke3 = Ok sk /\
      spk = kp_pk (ss_keypair setup) /\ kp_pk (ss_keypair setup) = k_pub (ke CS) (kp_sk (ss_keypair setup)).
Theorem C16_login_returns_registration_export_key_at_each_of_the_20_suites : all_suites (fun _ _ _ _ CS => CurveLaws CS -> C16_login_returns_registration_export_key_statement CS).
Proof. apply at_the_20_suites. exact C16_login_returns_registration_export_key. Qed.
Print Assumptions C16_login_returns_registration_export_key_at_each_of_the_20_suites.

(* Stability against an adversary.
   Whoever serves the login and whatever the client types: if the client's final step opens the envelope sealed at
   registration, it returns that registration's export key, or a collision of HMAC / HKDF-Expand is exhibited
   (Theory/ExportStable.v).  Together with C16_separated_from_other_registrations: the export key of a login is the
   export key of the registration whose envelope it opened, and of no other. *)
From OKE Require Import ExportStable.
Theorem C16_export_key_stable_against_any_server :
  forall E Sc Pk Sk (CS : Suite E Sc Pk Sk), HashLaws (hash CS) ->
  forall tape rp spk ids env cpk ek rest rp' spk' ids' kp ek' u s,
    envelope_seal CS tape rp spk ids = Ok (env, cpk, ek, rest) ->
    envelope_open CS env rp' spk' ids' = Ok (kp, ek', u, s) ->
    ek' = ek \/ BadS CS.
Proof. exact @export_key_stable_against_any_server. Qed.
Print Assumptions C16_export_key_stable_against_any_server.

Theorem C16_login_export_key_is_the_registrations :
  forall E Sc Pk Sk (CS : Suite E Sc Pk Sk), HashLaws (hash CS) ->
  forall creg tape pw rr ids ksf upload ek spk rest clog pw' r ctx ids' ksf' fin sk ek' spk' dbg,
    client_registration_finish CS creg tape pw rr ids ksf = Ok (upload, ek, spk, rest) ->
    client_login_finish CS clog pw' r ctx ids' ksf' = Ok (fin, sk, ek', spk', dbg) ->
    exists rp' mk env kp u s,
      unmask_response CS mk (cr_masking_nonce r) (cr_masked r) = Ok (spk', env) /\
      envelope_open CS env rp' spk' ids' = Ok (kp, ek', u, s) /\
      (env = ru_envelope upload -> ek' = ek \/ BadS CS).
Proof. exact @login_export_key_is_the_registrations. Qed.
Print Assumptions C16_login_export_key_is_the_registrations.
