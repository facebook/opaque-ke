(* C07 (distinct sessions, distinct keys): two sessions that release the same session key have the same
   transcript - in particular the same client nonce and ephemeral key (inside the request) and the same
   server nonce and ephemeral key - or an HMAC / hash collision is exhibited.  (Read backwards: sessions that differ
   in a nonce or key share release different keys, up to a collision.) *)
From Coq Require Import List.
From OKE Require Import Bytes Suite TripleDH.
From OKE Require Import Steps Laws Layers Transcript Bad KeySchedule.

Section Fresh.
  Context {E Sc Pk Sk : Type}.
  Variable CS : Suite E Sc Pk Sk.
  Hypothesis HL : HashLaws (hash CS).

  Theorem equal_session_keys_equal_transcripts {a b c pre sk km2 km3 hs a' b' c' pre' sk' km2' km3' hs'} :
    derive_3dh_keys CS a b c (h_hash (hash CS) pre) = Ok (sk, km2, km3, hs) ->
    derive_3dh_keys CS a' b' c' (h_hash (hash CS) pre') = Ok (sk', km2', km3', hs') ->
    sk = sk' -> pre = pre' \/ Bad (hash CS).
  Proof.
    intros (_ & Hsk & _)%derive_3dh_keys_Ok (_ & Hsk' & _)%derive_3dh_keys_Ok Heq.
    pose proof (hkdf_extract_length _ HL None) as Lprk.
    destruct (expand_label_inj CS HL Hsk Hsk' (Lprk _) (Lprk _) Heq) as [[_ Hh]|HB]; [exact (hash_inj Hh) | now right].
  Qed.

  (* with the transcript read back: same keys, same nonces and key shares *)
  Corollary equal_session_keys_equal_nonces
            a b c sk km2 km3 hs a' b' c' sk' km2' km3' hs'
            ctx u req s l2 n e pre ctx' u' req' s' l2' n' e' pre' iu is_ iu' is_' :
    lenprefix 2 iu = Some u -> lenprefix 2 is_ = Some s -> lenprefix 2 iu' = Some u' -> lenprefix 2 is_' = Some s' ->
    length req = length req' -> length l2 = length l2' -> length n = length n' ->
    preamble ctx u req s l2 n e = Ok pre -> preamble ctx' u' req' s' l2' n' e' = Ok pre' ->
    derive_3dh_keys CS a b c (h_hash (hash CS) pre) = Ok (sk, km2, km3, hs) ->
    derive_3dh_keys CS a' b' c' (h_hash (hash CS) pre') = Ok (sk', km2', km3', hs') ->
    sk = sk' -> (req = req' /\ n = n' /\ e = e') \/ Bad (hash CS).
  Proof.
    intros Hu Hs Hu' Hs' L1 L2 L3 Hp Hp' Hk Hk' Heq.
    destruct (equal_session_keys_equal_transcripts Hk Hk' Heq) as [->|HB]; [|now right].
    left. destruct (preamble_injective _ _ _ _ _ _ _ _ _ _ _ _ _ _ _ _ _ _ _ Hu Hs Hu' Hs' L1 L2 L3 Hp Hp') as (_ & _ & Hr & _ & _ & Hn & He).
    auto.
  Qed.
End Fresh.
