(* Functional-correctness layers of the protocol, each proved separately under
   the laws of Theory/Laws.v; C01 composes them, C06 / C14 / C16 reuse them.
   HKDF output lengths, one block of Expand is one HMAC; unmask (mask x) = x; open (seal x) = x; OPRF unblinding,
   and with it the randomized password as a function of password, evaluated element and stretching ([rpwd]);
   both sides of 3DH derive the same keys and accept each other's MAC. *)
From Coq Require Import List Arith Lia NArith.
From Coq Require Import Init.Byte.
From OKE Require Import Bytes Suite Hkdf Voprf Messages Envelope TripleDH Opaque.
From OKE Require Import ListLemmas BytesLemmas ResultLemmas Steps Codecs Roundtrip Laws.
Import ListNotations.
Local Open Scope res_scope.

Section HkdfLen.
  Variable h : HashOps.
  Hypothesis HL : HashLaws h.

  Lemma expand_blocks_length prk info prev i n :
    length (expand_blocks h prk info prev i n) = n * h_len h.
  Proof.
    revert prev i. induction n as [|n IH]; intros prev i; cbn [expand_blocks]; [reflexivity|].
    rewrite app_length, IH, (hmac_len h HL). lia.
  Qed.

  Lemma ceil_div_mul_ge a b : 0 < b -> a <= ceil_div a b * b.
  Proof.
    intros Hb. unfold ceil_div.
    pose proof (Nat.div_mod (a + b - 1) b ltac:(lia)) as Hd.
    pose proof (Nat.mod_upper_bound (a + b - 1) b ltac:(lia)) as Hm. nia.
  Qed.

  Lemma hkdf_expand_length {prk info len out} : hkdf_expand h prk info len = Some out -> length out = len.
  Proof.
    unfold hkdf_expand. destruct (255 * h_len h <? len); [discriminate|]. intros [= <-].
    rewrite firstn_length, expand_blocks_length.
    pose proof (ceil_div_mul_ge len (h_len h) (h_len_pos h HL)). lia.
  Qed.

  Lemma ceil_div_self n : 0 < n -> ceil_div n n = 1.
  Proof.
    intros H. unfold ceil_div. replace (n + n - 1) with (1 * n + (n - 1)) by lia.
    rewrite Nat.div_add_l by lia. rewrite Nat.div_small by lia. lia.
  Qed.

  (* one HMAC block: Expand(prk, info, Nh) = HMAC(prk, info || 0x01) *)
  Lemma hkdf_expand_one_block prk info :
    hkdf_expand h prk info (h_len h) = Some (h_hmac h prk (info ++ [x01])).
  Proof.
    pose proof (h_len_pos h HL) as Hp. unfold hkdf_expand.
    destruct (Nat.ltb_spec (255 * h_len h) (h_len h)); [lia|].
    rewrite ceil_div_self by assumption. cbn [expand_blocks]. rewrite app_nil_r.
    cbn [app]. f_equal. apply firstn_all2. rewrite (hmac_len h HL). lia.
  Qed.

  Lemma hkdf_expand_Some prk info len : len <= 255 * h_len h -> exists out, hkdf_expand h prk info len = Some out.
  Proof.
    intros Hle. unfold hkdf_expand. destruct (Nat.ltb_spec (255 * h_len h) len); [lia|]. eauto.
  Qed.

  Lemma hkdf_from_prk_expand_eq prk info len :
    h_len h <= length prk -> hkdf_from_prk_expand h prk info len = hkdf_expand h prk info len.
  Proof. intros H. unfold hkdf_from_prk_expand. destruct (Nat.ltb_spec (length prk) (h_len h)); [lia|reflexivity]. Qed.

  Lemma hkdf_extract_length salt ikm : length (hkdf_extract h salt ikm) = h_len h.
  Proof. unfold hkdf_extract. apply (hmac_len h HL). Qed.
End HkdfLen.
Arguments hkdf_expand_length {h} HL {prk info len out}.

Section Layers.
  Context {E Sc Pk Sk : Type}.
  Variable CS : Suite E Sc Pk Sk.
  Hypothesis HL : HashLaws (hash CS).
  Hypothesis GL : GroupLaws CS.
  Let h := hash CS.
  Let O := oprf CS.
  Let K := ke CS.

  Lemma masking_pad_length {mk nonce pad} :
    masking_pad CS mk nonce = Ok pad -> length pad = masked_response_len CS.
  Proof.
    unfold masking_pad, hkdf_from_prk_expand. intros H. inv_res.
    destruct (length mk <? h_len (hash CS)); [discriminate|].
    eapply hkdf_expand_length; eauto.
  Qed.

  Lemma hkdf_expand_label_length {secret label context out} :
    hkdf_expand_label CS secret label context = Ok out -> length out = h_len (hash CS).
  Proof. intros (a & b & c & _ & _ & _ & H)%hkdf_expand_label_Ok. exact (hkdf_expand_length HL H). Qed.

  Theorem unmask_mask {mk nonce spk env m} :
    vp CS spk -> wf_envelope CS env ->
    mask_response CS mk nonce spk env = Ok m ->
    unmask_response CS mk nonce m = Ok (spk, env).
  Proof.
    intros [Hd Hl] Henv H.
    apply mask_response_Ok in H as (pad & Hpad & ->).
    pose proof (masking_pad_length Hpad) as Hpl.
    pose proof nonce_lens_eq as Hne.
    assert (Hdata : length (k_ser_pk (ke CS) spk ++ envelope_serialize env) = masked_response_len CS).
    { destruct Henv as (_ & Hn & Hh). unfold envelope_serialize, masked_response_len. rewrite !app_length. lia. }
    unfold unmask_response. rewrite Hpad. cbn [bind].
    rewrite masked_response_roundtrip by (rewrite xor_bytes_length; lia).
    rewrite xor_bytes_involutive by lia.
    rewrite firstn_app_exact', skipn_app_exact' by lia.
    unfold pk_deserialize. rewrite Hd. cbn [of_option map_err bind].
    now rewrite envelope_rt.
  Qed.

  Theorem envelope_open_seal {tape rpwd spk ids env cpk ek rest} :
    envelope_seal CS tape rpwd spk ids = Ok (env, cpk, ek, rest) ->
    exists kp u s,
      envelope_open CS env rpwd spk ids = Ok (kp, ek, u, s) /\
      recover_keys_internal CS rpwd (env_nonce env) = Ok kp /\ kp_pk kp = cpk /\
      bytestrings_from_identifiers ids (k_ser_pk K cpk) (k_ser_pk K spk) = Ok (u, s) /\ wf_envelope CS env.
  Proof.
    intros H. apply envelope_seal_Ok in H as (kp & u & s & ak & _ & Hn & Hi & Hkp & -> & Hus & Hk & Ht).
    exists kp, u, s. unfold envelope_open. rewrite Hi. cbn [negb]. rewrite Hkp. cbn [bind]. rewrite Hus. cbn [bind].
    rewrite Hk. cbn [bind]. rewrite <- Ht, bytes_eqb_refl. repeat split; auto.
    rewrite Ht. apply (hmac_len _ HL).
  Qed.

  (* without the blind: the OPRF output and the randomized password as functions of the password, the evaluated
     element Q = P * k and the stretching function *)
  Definition oprf_output (input : bytes) (Q : E) : result bytes :=
    match i2osp_nat 2 (length input) with
    | None => Err (ELibrary (LOprfError OInput))
    | Some len => Ok (h_hash h (len ++ input ++ be_bytes 2 (N.of_nat (o_Noe O)) ++ o_ser_e O Q ++ Labels.STR_FINALIZE))
    end.

  Definition rpwd (pw : bytes) (Q : E) (ksf : option ksf_fn) : result bytes :=
    let* y := oprf_output pw Q in
    let* z := of_option (match ksf with Some f => f y | None => ksf_default CS y end) (ELibrary LKsfError) in
    Ok (hkdf_extract h None (y ++ z)).

  Theorem oprf_unblind input r k P :
    ve CS P -> vs CS r -> vs CS k ->
    voprf_finalize h O r input (o_mul O (o_mul O P r) k) = oprf_output input (o_mul O P k).
  Proof.
    intros HP Hr Hk. unfold voprf_finalize. unfold O.
    rewrite (g_mul_comm CS GL P r k HP Hr Hk).
    rewrite (g_mul_inv CS GL (o_mul (oprf CS) P k) r) by (try apply (g_mul_valid CS GL); assumption).
    reflexivity.
  Qed.

  Lemma rpwd_of_blinded pw r k P ksf :
    ve CS P -> vs CS r -> vs CS k ->
    get_password_derived_key CS pw r (o_mul O (o_mul O P r) k) ksf = rpwd pw (o_mul O P k) ksf.
  Proof. intros HP Hr Hk. unfold get_password_derived_key. fold h O. now rewrite oprf_unblind. Qed.

  Lemma keypair_generate_random_inv tape kp rest :
    keypair_generate_random CS tape = Ok (kp, rest) -> vk CS (kp_sk kp) /\ kp_pk kp = k_pub (ke CS) (kp_sk kp).
  Proof.
    intros H. apply keypair_generate_random_Ok in H as (seed & _ & L & Hd & Hp).
    split; [exact (g_derive_valid CS GL _ _ _ _ L Hd) | exact Hp].
  Qed.

  (* if the server ran generate_ke2 on the client's key share and static key, the client,
     holding the matching secrets and the same transcript inputs, accepts the server MAC,
     derives the same session key, and produces exactly the finalization the server expects *)
  Lemma ke_agreement_states {tape req l2 ke1 k1st cs ss u s ctx st ke2 rest dbg} :
    vk CS (k1s_client_e_sk k1st) -> k1_client_e_pk ke1 = k_pub (ke CS) (k1s_client_e_sk k1st) -> vk CS cs -> vk CS ss ->
    generate_ke2 CS (private_key_ops (ke CS)) tape req l2 ke1 (k_pub (ke CS) cs) ss u s ctx = Ok (st, ke2, rest, dbg) ->
    exists dbg',
      generate_ke3 CS l2 ke2 k1st req (k_pub (ke CS) ss) cs u s ctx
        = Ok (sl_session_key st,
              {| cf_mac := h_hmac (hash CS) (sl_km3 st) (sl_hashed_transcript st) |}, dbg') /\
      server_login_finish CS st {| cf_mac := h_hmac (hash CS) (sl_km3 st) (sl_hashed_transcript st) |}
        = Ok (sl_session_key st).
  Proof.
    intros Hce Hcepk Hcs Hss H.
    apply generate_ke2_Ok in H as (se & t1 & pre & dh2 & hs & Hkp & _ & Hpre & Hdh2 & Hkeys & Hmac & Hth).
    apply keypair_generate_random_inv in Hkp as [Hsev Hsepk]. cbn [kp_pk kp_sk] in *.
    injection Hdh2 as <-. rewrite Hcepk in Hkeys.
    (* each of the three Diffie-Hellman values, seen from the client *)
    rewrite (g_dh_sym CS GL _ se Hce Hsev), (g_dh_sym CS GL _ ss Hce Hss), (g_dh_sym CS GL cs se Hcs Hsev), <- Hsepk in Hkeys.
    eexists. split.
    - unfold generate_ke3. rewrite Hpre. cbn [bind]. rewrite Hkeys. cbn [bind].
      rewrite <- Hmac, bytes_eqb_refl, <- Hth. reflexivity.
    - unfold server_login_finish, finish_ke. cbn [cf_mac]. now rewrite bytes_eqb_refl.
  Qed.

  Theorem ke_agreement tape req l2 cnonce ce cs ss u s ctx st ke2 rest dbg :
    vk CS ce -> vk CS cs -> vk CS ss ->
    generate_ke2 CS (private_key_ops (ke CS)) tape req l2
                 {| k1_nonce := cnonce; k1_client_e_pk := k_pub (ke CS) ce |} (k_pub (ke CS) cs) ss u s ctx
      = Ok (st, ke2, rest, dbg) ->
    exists dbg',
      generate_ke3 CS l2 ke2 {| k1s_client_e_sk := ce; k1s_nonce := cnonce |} req (k_pub (ke CS) ss) cs u s ctx
        = Ok (sl_session_key st,
              {| cf_mac := h_hmac (hash CS) (sl_km3 st) (sl_hashed_transcript st) |}, dbg') /\
      server_login_finish CS st {| cf_mac := h_hmac (hash CS) (sl_km3 st) (sl_hashed_transcript st) |}
        = Ok (sl_session_key st).
  Proof. intros Hce. now apply ke_agreement_states. Qed.
End Layers.
