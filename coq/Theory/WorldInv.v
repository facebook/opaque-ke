(* C07 over histories: for EVERY sequence of adversary operations on the world of Model/World.v - any
   number of client and server sessions, any message delivered to anyone, in any order, one shared tape -
   every recorded acceptance is backed by the defining equation of the step that produced it (invariant by
   induction over the operations), and therefore, in every reachable world:
   - a completed client session that accepted a response carrying the MAC of the response of a server session
     started with a record has
     that session's transcript: the session was started on THIS client's request, the response is that
     session's, contexts agree, and the client's key is the key that server session will release;
   - a completed server session accepted exactly the HMAC over its own transcript and released its own key;
   each up to an exhibited HMAC / hash collision.
   [step_spec] (what one operation does to a world) and [run_invariant] (induction over a history) also carry the
   invariants of Theory/CrashInv.v and Theory/FreshRanges.v. *)
From Coq Require Import List.
From OKE Require Import Suite Messages Opaque World.
From OKE Require Import ListLemmas Laws Bad ClientAccept Accept MatchingApi.
Import ListNotations.

Section WorldInv.
  Context {E Sc Pk Sk : Type}.
  Variable CS : Suite E Sc Pk Sk.
  Hypothesis HL : HashLaws (hash CS).
  Hypothesis GL : GroupLaws CS.

  Definition srv_ok (setup : ServerSetup Pk Sk Sk) (s : SrvSession (E := E) (Pk := Pk)) : Prop :=
    exists tape rest dbg,
      server_login_start CS (private_key_ops (ke CS)) tape setup (sv_file s) (sv_rq s) (sv_cred s) (sv_ctx s) (sv_ids s)
        = Ok (sv_state s, sv_resp s, rest, dbg).

  Definition cdone_ok (w : World (E := E) (Sc := Sc) (Pk := Pk) (Sk := Sk)) (d : CliDone (E := E) (Pk := Pk)) : Prop :=
    exists c dbg, nth_error (w_cli w) (cd_client d) = Some c /\
      client_login_finish CS (cs_state c) (cs_pw c) (cd_resp d) (cd_ctx d) (cd_ids d) None
        = Ok (cd_fin d, cd_key d, cd_export d, cd_spk d, dbg).

  Definition sdone_ok (w : World (E := E) (Sc := Sc) (Pk := Pk) (Sk := Sk)) (d : SrvDone) : Prop :=
    exists s, nth_error (w_srv w) (sd_server d) = Some s /\ server_login_finish CS (sv_state s) (sd_fin d) = Ok (sd_key d).

  Definition Inv (w : World (E := E) (Sc := Sc) (Pk := Pk) (Sk := Sk)) : Prop :=
    Forall (srv_ok (w_setup w)) (w_srv w) /\ Forall (cdone_ok w) (w_cdone w) /\ Forall (sdone_ok w) (w_sdone w).

  Notation W := (World (E := E) (Sc := Sc) (Pk := Pk) (Sk := Sk)).

  (* What one operation does to a world: nothing, or one record at the end of one of the four lists, the output of the
     API call that succeeded on the world's tape, setup and sessions.  The setup never changes. *)
  Variant step_to (w : W) : W -> op -> Prop :=
  | step_idle o : step_to w w o
  | step_client_start c m rest :
      client_login_start CS (w_tape w) (cs_pw c) = Ok (cs_state c, m, rest) ->
      step_to w {| w_setup := w_setup w; w_tape := rest; w_srv := w_srv w; w_cli := w_cli w ++ [c];
                   w_cdone := w_cdone w; w_sdone := w_sdone w |}
              (OClientStart (cs_pw c))
  | step_server_start s rest dbg :
      server_login_start CS (private_key_ops (ke CS)) (w_tape w) (w_setup w) (sv_file s) (sv_rq s) (sv_cred s) (sv_ctx s) (sv_ids s)
        = Ok (sv_state s, sv_resp s, rest, dbg) ->
      step_to w {| w_setup := w_setup w; w_tape := rest; w_srv := w_srv w ++ [s]; w_cli := w_cli w;
                   w_cdone := w_cdone w; w_sdone := w_sdone w |}
              (OServerStart (sv_file s) (sv_cred s) (sv_ctx s) (sv_ids s) (sv_rq s))
  | step_client_finish d :
      cdone_ok w d ->
      step_to w {| w_setup := w_setup w; w_tape := w_tape w; w_srv := w_srv w; w_cli := w_cli w;
                   w_cdone := w_cdone w ++ [d]; w_sdone := w_sdone w |}
              (OClientFinish (cd_client d) (cd_resp d) (cd_ctx d) (cd_ids d))
  | step_server_finish d :
      sdone_ok w d ->
      step_to w {| w_setup := w_setup w; w_tape := w_tape w; w_srv := w_srv w; w_cli := w_cli w;
                   w_cdone := w_cdone w; w_sdone := w_sdone w ++ [d] |}
              (OServerFinish (sd_server d) (sd_fin d)).

  Lemma step_spec w o : step_to w (step CS w o) o.
  Proof.
    destruct o as [pw | file cred ctx ids rq | i r ctx ids | j fin]; cbn [step].
    - destruct (client_login_start CS (w_tape w) pw) as [[[st m] rest]|] eqn:H; [|constructor].
      eapply step_client_start, H.
    - destruct (server_login_start CS _ (w_tape w) (w_setup w) file rq cred ctx ids) as [[[[st resp] rest] dbg]|] eqn:H;
        [|constructor].
      eapply step_server_start, H.
    - destruct (nth_error (w_cli w) i) as [c|] eqn:Hn; [|constructor].
      destruct (client_login_finish CS (cs_state c) (cs_pw c) r ctx ids None) as [[[[[fin key] ek] spk] dbg]|] eqn:H;
        [|constructor].
      eapply step_client_finish. exists c, dbg. split; [exact Hn | exact H].
    - destruct (nth_error (w_srv w) j) as [s|] eqn:Hn; [|constructor].
      destruct (server_login_finish CS (sv_state s) fin) as [key|] eqn:H; [|constructor].
      eapply step_server_finish. exists s. split; [exact Hn | exact H].
  Qed.

  (* a property kept by every step of a history holds at its end; [In o ops] lets the step use what is known of the
     history's operations *)
  Lemma run_invariant (P : W -> Prop) ops :
    (forall w o, In o ops -> P w -> P (step CS w o)) -> forall w, P w -> P (run CS w ops).
  Proof.
    unfold run. induction ops as [|o ops IH]; intros Hstep w Hw; cbn [fold_left]; [exact Hw|].
    apply IH.
    - intros w' o' Hin. apply Hstep. now right.
    - apply Hstep; [now left | exact Hw].
  Qed.

  Lemma run_app w h k : run CS w (h ++ k) = run CS (run CS w h) k.
  Proof. apply fold_left_app. Qed.

  Lemma setup_fixed w ops : w_setup (run CS w ops) = w_setup w.
  Proof. apply run_invariant; [|reflexivity]. intros w' o _ <-. now destruct (step_spec w' o). Qed.

  Lemma Inv_init setup tape : Inv (@init E Sc Pk Sk setup tape).
  Proof. repeat split; constructor. Qed.

  (* completions recorded against a list of pending sessions stay justified when the list grows *)
  Lemma cdone_ok_grow w w' l ds : w_cli w' = w_cli w ++ l -> Forall (cdone_ok w) ds -> Forall (cdone_ok w') ds.
  Proof.
    intros Hw. apply Forall_impl. intros d (c & dbg & Hn & Hf). exists c, dbg.
    rewrite Hw. split; [now apply nth_error_app_keep | exact Hf].
  Qed.

  Lemma sdone_ok_grow w w' l ds : w_srv w' = w_srv w ++ l -> Forall (sdone_ok w) ds -> Forall (sdone_ok w') ds.
  Proof.
    intros Hw. apply Forall_impl. intros d (s & Hn & Hf). exists s.
    rewrite Hw. split; [now apply nth_error_app_keep | exact Hf].
  Qed.

  Lemma Inv_step w o : Inv w -> Inv (step CS w o).
  Proof.
    intros (Hs & Hc & Hd). destruct (step_spec w o) as [o | c m rest H | s rest dbg H | d H | d H].
    - repeat split; assumption.
    - repeat split; [exact Hs | | exact Hd]. eapply cdone_ok_grow; [reflexivity | exact Hc].
    - repeat split; [ | exact Hc | eapply sdone_ok_grow; [reflexivity | exact Hd]].
      apply Forall_snoc; [exact Hs|]. exists (w_tape w), rest, dbg. exact H.
    - repeat split; [exact Hs | | exact Hd]. apply Forall_snoc; [exact Hc | exact H].
    - repeat split; [exact Hs | exact Hc | ]. apply Forall_snoc; [exact Hd | exact H].
  Qed.

  Lemma Inv_run w ops : Inv w -> Inv (run CS w ops).
  Proof. apply run_invariant. intros w' o _. apply Inv_step. Qed.

  (* every reachable world satisfies the invariant: induction over the operation list, no bound on its length *)
  Theorem reachable_inv setup tape ops : Inv (run CS (@init E Sc Pk Sk setup tape) ops).
  Proof. apply Inv_run, Inv_init. Qed.

  Theorem matched_conversations setup tape ops d s f :
    let w := run CS (@init E Sc Pk Sk setup tape) ops in
    In d (w_cdone w) -> In s (w_srv w) -> sv_file s = Some f ->
    k2_mac (cr_ke2 (cd_resp d)) = k2_mac (cr_ke2 (sv_resp s)) ->
    forall c, nth_error (w_cli w) (cd_client d) = Some c ->
    length (client_request_bytes CS (cs_state c)) = length (server_request_bytes CS (sv_rq s)) ->
    length (client_l2 CS (cd_resp d)) = length (client_l2 CS (sv_resp s)) ->
    length (k2_nonce (cr_ke2 (cd_resp d))) = length (k2_nonce (cr_ke2 (sv_resp s))) ->
    (client_request_bytes CS (cs_state c) = server_request_bytes CS (sv_rq s) /\
     client_l2 CS (cd_resp d) = client_l2 CS (sv_resp s) /\
     k2_nonce (cr_ke2 (cd_resp d)) = k2_nonce (cr_ke2 (sv_resp s)) /\
     k_ser_pk (ke CS) (k2_server_e_pk (cr_ke2 (cd_resp d))) = k_ser_pk (ke CS) (k2_server_e_pk (cr_ke2 (sv_resp s))) /\
     match cd_ctx d with Some x => x | None => [] end = match sv_ctx s with Some x => x | None => [] end /\
     cd_key d = sl_session_key (sv_state s))
    \/ Bad (hash CS).
  Proof.
    intros w Hd Hs Hf Hmac c Hc L1 L2 L3.
    destruct (reachable_inv setup tape ops) as (Isrv & Icd & _). fold w in Isrv, Icd.
    rewrite Forall_forall in Isrv, Icd.
    destruct (Isrv s Hs) as (t & rest & dbg & Hstart). destruct (Icd d Hd) as (c' & dbg' & Hc' & Hfin).
    rewrite Hc in Hc'. injection Hc' as <-. rewrite Hf in Hstart.
    eapply (accepted_response_is_that_sessions CS HL GL); eauto.
  Qed.

  (* a completed server session accepted the one MAC over its own transcript, and released its own key *)
  Theorem server_completions setup tape ops d :
    let w := run CS (@init E Sc Pk Sk setup tape) ops in
    In d (w_sdone w) ->
    exists s, nth_error (w_srv w) (sd_server d) = Some s /\
      cf_mac (sd_fin d) = h_hmac (hash CS) (sl_km3 (sv_state s)) (sl_hashed_transcript (sv_state s)) /\
      sd_key d = sl_session_key (sv_state s).
  Proof.
    intros w Hd. destruct (reachable_inv setup tape ops) as (_ & _ & Isd). fold w in Isd.
    rewrite Forall_forall in Isd. destruct (Isd d Hd) as (s & Hn & Hf).
    exists s. split; [exact Hn|]. now apply server_finish_accept_iff in Hf.
  Qed.
End WorldInv.
