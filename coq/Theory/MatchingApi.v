(* C07 / C04(iii) / C05: matched conversations, pairwise.  No assumption on how messages were routed: the adversary
   may deliver anything to anyone.
   (1) Key schedule and transcript: equal server MACs mean equal transcripts, and the transcript reads back to who
       talked to whom; a finalization a server session accepts is the MAC over ITS transcript.
   (2) At the API: if a client accepts ANY response r' whose MAC field equals the MAC of the response an honest
       server session produced, then that session was started on this client's own request, r' agrees with the
       session's response in every field, and both sides used the same context and effective identities.
   Each up to an exhibited HMAC / hash collision. *)
From Coq Require Import List.
From OKE Require Import Bytes Suite Messages Envelope TripleDH Opaque.
From OKE Require Import Laws Transcript Bad Steps ClientAccept KeySchedule Accept.
Import ListNotations.

Section Matching.
  Context {E Sc Pk Sk : Type}.
  Variable CS : Suite E Sc Pk Sk.
  Hypothesis HL : HashLaws (hash CS).

  Theorem equal_server_mac_equal_transcript
          {a b c pre sk km2 km3 hs a' b' c' pre' sk' km2' km3' hs'} :
    derive_3dh_keys CS a b c (h_hash (hash CS) pre) = Ok (sk, km2, km3, hs) ->
    derive_3dh_keys CS a' b' c' (h_hash (hash CS) pre') = Ok (sk', km2', km3', hs') ->
    h_hmac (hash CS) km2 (h_hash (hash CS) pre) = h_hmac (hash CS) km2' (h_hash (hash CS) pre') ->
    (pre = pre' /\ a ++ b ++ c = a' ++ b' ++ c' /\ sk = sk' /\ km3 = km3') \/ Bad (hash CS).
  Proof.
    intros H H' Hm.
    destruct (server_mac_determines_inputs CS HL _ _ _ _ _ _ _ _ _ _ _ _ _ _ _ _ H H' Hm) as [(Hd & Hh & Hs & Hk)|HB]; [|now right].
    destruct (hash_inj Hh) as [->|HB]; auto.
  Qed.

  (* the transcript, read back: who talked to whom *)
  Theorem equal_transcripts_same_conversation
          {ctx ids cpk spk u s req l2 n e pre ctx' ids' cpk' spk' u' s' req' l2' n' e'} :
    bytestrings_from_identifiers ids cpk spk = Ok (u, s) ->
    bytestrings_from_identifiers ids' cpk' spk' = Ok (u', s') ->
    length req = length req' -> length l2 = length l2' -> length n = length n' ->
    preamble ctx u req s l2 n e = Ok pre ->
    preamble ctx' u' req' s' l2' n' e' = Ok pre ->
    ctx = ctx' /\ effective (id_client ids) cpk = effective (id_client ids') cpk' /\
    effective (id_server ids) spk = effective (id_server ids') spk' /\
    req = req' /\ l2 = l2' /\ n = n' /\ e = e'.
  Proof.
    intros Hb Hb' L1 L2 L3 Hp Hp'.
    apply bytestrings_Ok in Hb as [Hu Hs]. apply bytestrings_Ok in Hb' as [Hu' Hs'].
    destruct (preamble_injective _ _ _ _ _ _ _ _ _ _ _ _ _ _ _ _ _ _ _ Hu Hs Hu' Hs' L1 L2 L3 Hp Hp')
      as (-> & Hi & -> & Hj & -> & -> & ->). repeat split; auto.
  Qed.

  (* the finalization a server session accepts is the MAC over ITS transcript under ITS key; a client run
     whose finalization it accepts has hashed the same transcript-with-server-MAC (the two parts separate once the
     MACs have one length, as HMAC outputs do) *)
  Theorem accepted_finalization_same_transcript st fin k pre mac km3c prec macc :
    sl_hashed_transcript st = h_hash (hash CS) (pre ++ mac) ->
    cf_mac fin = h_hmac (hash CS) km3c (h_hash (hash CS) (prec ++ macc)) ->
    length (sl_km3 st) = length km3c ->
    server_login_finish CS st fin = Ok k ->
    (sl_km3 st = km3c /\ pre ++ mac = prec ++ macc /\ k = sl_session_key st) \/ Bad (hash CS).
  Proof.
    intros Hst Hfin Hl Hacc. apply server_finish_accept_iff in Hacc as [Hm ->].
    rewrite Hfin, Hst in Hm. symmetry in Hm.
    destruct (mac_inj Hl Hm) as [[Hk Hh]|HB]; [|now right].
    destruct (hash_inj Hh) as [He|HB]; auto.
  Qed.

  (* the client accepted r' carrying the MAC of an honest session's response: the two transcripts are equal, read back
     field by field on both sides.  No group law is needed: nothing here asks whether a key is valid. *)
  Lemma accepted_response_same_conversation
          {tape} {setup : ServerSetup Pk Sk Sk} {file rq cred ctx_s ids_s slog resp rest dbg
          clog pw r' ctx_c ids_c ksf fin sk ek spk dbgc} :
    server_login_start CS (private_key_ops (ke CS)) tape setup (Some file) rq cred ctx_s ids_s = Ok (slog, resp, rest, dbg) ->
    client_login_finish CS clog pw r' ctx_c ids_c ksf = Ok (fin, sk, ek, spk, dbgc) ->
    k2_mac (cr_ke2 r') = k2_mac (cr_ke2 resp) ->
    length (client_request_bytes CS clog) = length (credential_request_serialize CS rq) ->
    length (client_l2 CS r') = length (client_l2 CS resp) ->
    length (k2_nonce (cr_ke2 r')) = length (k2_nonce (cr_ke2 resp)) ->
    (exists rp env kp u s,
       envelope_open CS env rp spk ids_c = Ok (kp, ek, u, s) /\
       match ctx_c with Some c => c | None => [] end = match ctx_s with Some c => c | None => [] end /\
       effective (id_client ids_c) (k_ser_pk (ke CS) (kp_pk kp)) =
         effective (id_client ids_s) (k_ser_pk (ke CS) (ru_client_s_pk file)) /\
       effective (id_server ids_c) (k_ser_pk (ke CS) spk) =
         effective (id_server ids_s) (k_ser_pk (ke CS) (k_pub (ke CS) (kp_sk (ss_keypair setup)))) /\
       client_request_bytes CS clog = credential_request_serialize CS rq /\
       client_l2 CS r' = client_l2 CS resp /\
       k2_nonce (cr_ke2 r') = k2_nonce (cr_ke2 resp) /\
       k_ser_pk (ke CS) (k2_server_e_pk (cr_ke2 r')) = k_ser_pk (ke CS) (k2_server_e_pk (cr_ke2 resp)) /\
       sk = sl_session_key slog)
    \/ Bad (hash CS).
  Proof.
    intros Hsrv Hacc Hmac L1 L2 L3.
    apply server_login_start_Ok in Hsrv as (rec & t0 & t1 & spk0 & u & s & Hrec & Hspk & _ & _ & _ & Hids & _ & Hke2).
    injection Hrec as <- <-. injection Hspk as <-.
    apply generate_ke2_Ok in Hke2 as (esk & t2 & pre & dh2 & hs & _ & _ & Hpre & _ & Hkeys & Hm & _).
    apply client_accepts_iff in Hacc
      as (rp & mk & env & kp & u' & s' & pre' & km2' & km3' & hs' & _ & _ & _ & _ & Hopen & Hpre' & Hkeys' & Hm' & _).
    rewrite Hmac, Hm in Hm'.
    destruct (equal_server_mac_equal_transcript Hkeys Hkeys' Hm') as [(<- & _ & Hsk & _)|HB];
      [left | now right].
    pose proof Hopen as Hids'. apply envelope_open_Ok in Hids' as (ak & _ & _ & Hids' & _).
    destruct (equal_transcripts_same_conversation Hids' Hids L1 L2 L3 Hpre' Hpre) as (Hc & Hiu & His & Hr & Hl2 & Hn & He).
    exists rp, env, kp, u', s'. repeat (split; [assumption|]). now symmetry.
  Qed.

End Matching.

Section MatchingApi.
  Context {E Sc Pk Sk : Type}.
  Variable CS : Suite E Sc Pk Sk.
  Hypothesis HL : HashLaws (hash CS).
  Hypothesis GL : GroupLaws CS.

  Definition server_request_bytes (rq : CredentialRequest E Pk) : bytes :=
    o_ser_e (oprf CS) (cq_blinded rq) ++ ke1_message_serialize CS (cq_ke1 rq).

  Theorem accepted_response_is_that_sessions
          tape (setup : ServerSetup Pk Sk Sk) file rq cred ctx_s ids_s slog resp rest dbg
          clog pw r' ctx_c ids_c ksf fin sk ek spk dbgc :
    server_login_start CS (private_key_ops (ke CS)) tape setup (Some file) rq cred ctx_s ids_s = Ok (slog, resp, rest, dbg) ->
    client_login_finish CS clog pw r' ctx_c ids_c ksf = Ok (fin, sk, ek, spk, dbgc) ->
    k2_mac (cr_ke2 r') = k2_mac (cr_ke2 resp) ->
    (* messages of the suite's fixed lengths (C10) *)
    length (client_request_bytes CS clog) = length (server_request_bytes rq) ->
    length (client_l2 CS r') = length (client_l2 CS resp) ->
    length (k2_nonce (cr_ke2 r')) = length (k2_nonce (cr_ke2 resp)) ->
    (client_request_bytes CS clog = server_request_bytes rq /\
     client_l2 CS r' = client_l2 CS resp /\
     k2_nonce (cr_ke2 r') = k2_nonce (cr_ke2 resp) /\
     k_ser_pk (ke CS) (k2_server_e_pk (cr_ke2 r')) = k_ser_pk (ke CS) (k2_server_e_pk (cr_ke2 resp)) /\
     match ctx_c with Some c => c | None => [] end = match ctx_s with Some c => c | None => [] end /\
     sk = sl_session_key slog)
    \/ Bad (hash CS).
  Proof using HL GL.
    intros Hsrv Hacc Hmac L1 L2 L3.
    destruct (accepted_response_same_conversation CS HL Hsrv Hacc Hmac L1 L2 L3)
      as [(rp & env & kp & u & s & _ & Hc & _ & _ & Hr & Hl2 & Hn & He & Hsk)|HB]; auto 10.
  Qed.
  (* C05 end to end: the same lemma, read for context and effective identities.  Absent identities are the static
     public keys: the one in the server's record / recovered from the envelope for the client, the setup's / the one
     unmasked from the response for the server.  Contrapositive: any disagreement makes the client's final step fail
     (up to an exhibited collision). *)
  Theorem accepted_login_agrees_on_context_and_identities
          tape (setup : ServerSetup Pk Sk Sk) file rq cred ctx_s ids_s slog resp rest dbg
          clog pw r' ctx_c ids_c ksf fin sk ek spk dbgc :
    server_login_start CS (private_key_ops (ke CS)) tape setup (Some file) rq cred ctx_s ids_s = Ok (slog, resp, rest, dbg) ->
    client_login_finish CS clog pw r' ctx_c ids_c ksf = Ok (fin, sk, ek, spk, dbgc) ->
    k2_mac (cr_ke2 r') = k2_mac (cr_ke2 resp) ->
    (* messages of the suite's fixed lengths (C10) *)
    length (client_request_bytes CS clog) = length (server_request_bytes rq) ->
    length (client_l2 CS r') = length (client_l2 CS resp) ->
    length (k2_nonce (cr_ke2 r')) = length (k2_nonce (cr_ke2 resp)) ->
    (exists rp env kp u s,
       (* what the client recovered: its key pair from the envelope, the server key from the masked response *)
       envelope_open CS env rp spk ids_c = Ok (kp, ek, u, s) /\
       match ctx_c with Some c => c | None => [] end = match ctx_s with Some c => c | None => [] end /\
       effective (id_client ids_c) (k_ser_pk (ke CS) (kp_pk kp)) =
         effective (id_client ids_s) (k_ser_pk (ke CS) (ru_client_s_pk file)) /\
       effective (id_server ids_c) (k_ser_pk (ke CS) spk) =
         effective (id_server ids_s) (k_ser_pk (ke CS) (k_pub (ke CS) (kp_sk (ss_keypair setup)))))
    \/ Bad (hash CS).
  Proof using HL GL.
    intros Hsrv Hacc Hmac L1 L2 L3.
    destruct (accepted_response_same_conversation CS HL Hsrv Hacc Hmac L1 L2 L3)
      as [(rp & env & kp & u & s & Hopen & Hc & Hiu & His & _)|HB]; eauto 10.
  Qed.
End MatchingApi.
