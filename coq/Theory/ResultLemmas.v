(* Inversion lemmas for the result monad of the model. *)
From OKE Require Import Suite.

Lemma bind_Ok {A B} (r : result A) (f : A -> result B) b :
  bind r f = Ok b -> exists a, r = Ok a /\ f a = Ok b.
Proof. destruct r as [a|e]; cbn; [eauto | discriminate]. Qed.

Lemma bind_Err {A B} (r : result A) (f : A -> result B) e :
  bind r f = Err e -> r = Err e \/ exists a, r = Ok a /\ f a = Err e.
Proof. destruct r as [a|e']; cbn; [eauto | intros [= ->]; auto]. Qed.

Lemma of_option_Ok {A} (o : option A) e a : of_option o e = Ok a -> o = Some a.
Proof. destruct o; cbn; congruence. Qed.

Lemma of_option_Err {A} (o : option A) e e' : of_option o e = Err e' -> o = None /\ e' = e.
Proof. destruct o; cbn; [discriminate | intros [= <-]; auto]. Qed.

Lemma map_err_Ok {A} (r : result A) f a : map_err r f = Ok a -> r = Ok a.
Proof. destruct r; cbn; congruence. Qed.

(* takes a chain [bind .. = Ok _] apart, through the tests ([if .. then Err _ else ..]) and lookups ([of_option]) between its steps *)
Ltac inv_res :=
  repeat match goal with
  | H : bind _ _ = Ok _ |- _ => let a := fresh "v" in let H1 := fresh "Hb" in
        apply bind_Ok in H; destruct H as (a & H1 & H)
  | H : of_option _ _ = Ok _ |- _ => apply of_option_Ok in H
  | H : Ok _ = Ok _ |- _ => injection H as H
  | H : (if ?c then Err _ else _) = Ok _ |- _ => let E := fresh "Hc" in destruct c eqn:E; [discriminate H|]
  | H : (if ?c then _ else Err _) = Ok _ |- _ => let E := fresh "Hc" in destruct c eqn:E; [|discriminate H]
  end.
