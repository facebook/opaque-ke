(* HKDF-Expand of one block is one HMAC (Layers.hkdf_expand_one_block), so it and Expand-Label are injective up to an exhibited HMAC collision
   (same key length, different (key, message)).  For the 3DH key schedule: equal server MACs come from equal
   Diffie-Hellman inputs and equal transcript hashes, or a collision is exhibited at one of four HMAC calls. *)
From Coq Require Import List Arith Lia.
From Coq Require Import Init.Byte.
From OKE Require Import Bytes Suite Generated Hkdf TripleDH.
From OKE Require Import BytesLemmas ResultLemmas Steps Laws Layers Bad.
Import ListNotations.

Section KS.
  Variable h : HashOps.
  Hypothesis HL : HashLaws h.

  Lemma byte_of_nat_1 : byte_of_nat 1 = x01.
  Proof. reflexivity. Qed.

  Lemma mac_inj {k m k' m'} : length k = length k' -> h_hmac h k m = h_hmac h k' m' -> (k = k' /\ m = m') \/ Bad h.
  Proof.
    intros Hl He.
    destruct (list_eq_dec Byte.byte_eq_dec k k') as [->|Hk].
    - destruct (list_eq_dec Byte.byte_eq_dec m m') as [->|Hm]; [now left|].
      right. apply (BadMac h k' m k' m'); congruence.
    - right. apply (BadMac h k m k' m'); congruence.
  Qed.

  Lemma hash_inj {x y} : h_hash h x = h_hash h y -> x = y \/ Bad h.
  Proof. intros He. destruct (list_eq_dec Byte.byte_eq_dec x y) as [->|Hne]; [now left | right; exact (BadHash h x y Hne He)]. Qed.

  (* hence injective as one HMAC is: under keys of one length *)
  Lemma expand_block_inj {prk info prk' info' out} :
    length prk = length prk' ->
    hkdf_expand h prk info (h_len h) = Some out -> hkdf_expand h prk' info' (h_len h) = Some out ->
    (prk = prk' /\ info = info') \/ Bad h.
  Proof.
    rewrite !(hkdf_expand_one_block h HL). intros L [= <-] [= H]. symmetry in H.
    destruct (mac_inj L H) as [[-> Hi%app_inv_tail]|HB]; auto.
  Qed.
End KS.
Arguments mac_inj {h k m k' m'}.
Arguments hash_inj {h x y}.
Arguments expand_block_inj {h} HL {prk info prk' info' out}.

Section KS2.
  Context {E Sc Pk Sk : Type}.
  Variable CS : Suite E Sc Pk Sk.
  Hypothesis HL : HashLaws (hash CS).

  (* HKDF-Expand at any length, under keys of any lengths: one output from two inputs is the event [BS_expand]
     of its own (for one block under keys of one length it is an HMAC collision, [expand_block_inj]) *)
  Lemma expand_inj {prk info prk' info' len out} :
    hkdf_expand (hash CS) prk info len = Some out -> hkdf_expand (hash CS) prk' info' len = Some out ->
    (prk = prk' /\ info = info') \/ BadS CS.
  Proof.
    intros H H'.
    destruct (list_eq_dec Byte.byte_eq_dec prk prk') as [->|Hp], (list_eq_dec Byte.byte_eq_dec info info') as [->|Hi];
      [now left | right; eapply BS_expand; [|exact H|exact H']; congruence ..].
  Qed.

  (* the length hypotheses: an HMAC collision is one between keys of one length, and every secret of the key
     schedule has the hash's *)
  Lemma expand_label_inj {secret label c out secret' c' out'} :
    hkdf_expand_label CS secret label c = Ok out -> hkdf_expand_label CS secret' label c' = Ok out' ->
    length secret = h_len (hash CS) -> length secret' = h_len (hash CS) -> out = out' ->
    (secret = secret' /\ c = c') \/ Bad (hash CS).
  Proof.
    intros (a & b & x & Ha & Hb & Hx & H)%hkdf_expand_label_Ok (a' & b' & x' & Ha' & Hb' & Hx' & H')%hkdf_expand_label_Ok L L' <-.
    rewrite Ha in Ha'. injection Ha' as <-. rewrite Hb in Hb'. injection Hb' as <-.
    destruct (expand_block_inj HL (eq_trans L (eq_sym L')) H H') as [[-> Hi]|HB]; [left | now right].
    apply app_inv_head in Hi. apply app_inv_head in Hi. subst x'.
    split; [reflexivity | exact (lenprefix_inj_nil Hx Hx')].
  Qed.

  (* the server MAC determines the key-schedule inputs, up to exhibited collisions *)
  Theorem server_mac_determines_inputs a b c th sk km2 km3 hs a' b' c' th' sk' km2' km3' hs' :
    derive_3dh_keys CS a b c th = Ok (sk, km2, km3, hs) ->
    derive_3dh_keys CS a' b' c' th' = Ok (sk', km2', km3', hs') ->
    h_hmac (hash CS) km2 th = h_hmac (hash CS) km2' th' ->
    (a ++ b ++ c = a' ++ b' ++ c' /\ th = th' /\ sk = sk' /\ km3 = km3') \/ Bad (hash CS).
  Proof.
    intros H H' Hmac.
    apply derive_3dh_keys_Ok in H as (Hhs & Hsk & Hk2 & Hk3). apply derive_3dh_keys_Ok in H' as (Hhs' & Hsk' & Hk2' & Hk3').
    pose proof (hkdf_extract_length _ HL None) as Lprk.
    (* 1: the MAC itself, under km2 *)
    destruct (mac_inj (eq_trans (hkdf_expand_label_length CS HL Hk2) (eq_sym (hkdf_expand_label_length CS HL Hk2'))) Hmac) as [[Hkm <-]|HB]; [|now right].
    (* 2: km2 is Expand-Label of the handshake secret *)
    destruct (expand_label_inj Hk2 Hk2' (hkdf_expand_label_length CS HL Hhs) (hkdf_expand_label_length CS HL Hhs') Hkm) as [[<- _]|HB]; [|now right].
    (* 3: the handshake secret is Expand-Label of prk *)
    destruct (expand_label_inj Hhs Hhs' (Lprk _) (Lprk _) eq_refl) as [[Hprk _]|HB]; [|now right].
    (* 4: prk = HMAC(0, dh1 || dh2 || dh3) *)
    destruct (mac_inj eq_refl Hprk) as [[_ Hdh]|HB]; [|now right].
    (* equal prk and transcript hash give equal session key and client MAC key *)
    left. rewrite <- Hprk in Hsk'. split; [exact Hdh|]. split; [reflexivity|]. split; congruence.
  Qed.
End KS2.
