(* What each operation of the model did when it returned [Ok]: one inversion lemma per operation, in terms
   of the operations it calls, with the outputs named by their projections.  No law is assumed here
   (recover_keys_internal and server_evaluate say little without the group laws: theirs are in Theory/Honest.v;
   preamble and bytestrings_from_identifiers have theirs in Theory/Transcript.v, client_login_finish with
   generate_ke3 in Theory/ClientAccept.v);
   the proofs of the properties invert an operation through these lemmas and unfold one only to run it forward
   on known inputs.  The tape layout of each operation (C17) is read off them at the end of the file. *)
From Coq Require Import List Arith.
From OKE Require Import Bytes Suite Generated Hkdf Voprf Messages Envelope TripleDH Opaque.
From OKE Require Import ListLemmas BytesLemmas ResultLemmas.
Import ListNotations.

(* the intro patterns [= <- <-] simplify what they substitute: keep [firstn 32 t] folded *)
Local Arguments firstn : simpl never.
Local Arguments skipn : simpl never.

Section Steps.
  Context {E Sc Pk Sk : Type}.
  Variable CS : Suite E Sc Pk Sk.

  Lemma generate_nonce_Ok t n r :
    generate_nonce t = Ok (n, r) -> t = n ++ r /\ length n = KE_NONCE_LEN.
  Proof.
    unfold generate_nonce. destruct (Nat.ltb_spec (length t) KE_NONCE_LEN); [discriminate|].
    intros [= <- <-]. now apply take_split.
  Qed.

  Lemma keypair_generate_random_Ok t kp r :
    keypair_generate_random CS t = Ok (kp, r) ->
    exists seed, t = seed ++ r /\ length seed = k_Nsk (ke CS) /\
                 k_derive (ke CS) (hash CS) (o_id (oprf CS)) seed = Some (kp_sk kp) /\
                 kp_pk kp = k_pub (ke CS) (kp_sk kp).
  Proof.
    unfold keypair_generate_random. destruct (Nat.ltb_spec (length t) (k_Nsk (ke CS))); [discriminate|].
    destruct (k_derive _ _ _ _) as [s|] eqn:Hs; [|discriminate]. intros [= <- <-].
    exists (firstn (k_Nsk (ke CS)) t). destruct (take_split t (k_Nsk (ke CS))) as [Hs1 Hs2]; [assumption|]. auto.
  Qed.

  Lemma voprf_blind_Ok tape pw r b rest :
    voprf_blind (oprf CS) tape pw = Ok (r, b, rest) ->
    o_random_scalar (oprf CS) tape = Some (r, rest) /\
    b = o_mul (oprf CS) (o_h2g (oprf CS) pw (dst_hash_to_group (oprf CS))) r.
  Proof.
    unfold voprf_blind. destruct (o_random_scalar (oprf CS) tape) as [[r0 t]|]; [|discriminate].
    intros [= <- <- <-]. auto.
  Qed.

  Lemma envelope_keys_Ok rp nonce ak ek :
    envelope_keys CS rp nonce = Ok (ak, ek) ->
    hkdf_expand (hash CS) rp (nonce ++ STR_AUTH_KEY) (h_len (hash CS)) = Some ak /\
    hkdf_expand (hash CS) rp (nonce ++ STR_EXPORT_KEY) (h_len (hash CS)) = Some ek.
  Proof. unfold envelope_keys. intros H. inv_res. inversion H; subst. auto. Qed.

  Lemma envelope_seal_Ok tape rp spk ids env cpk ek rest :
    envelope_seal CS tape rp spk ids = Ok (env, cpk, ek, rest) ->
    exists kp u s ak,
      tape = env_nonce env ++ rest /\ length (env_nonce env) = ENVELOPE_NONCE_LEN /\ env_internal env = true /\
      recover_keys_internal CS rp (env_nonce env) = Ok kp /\ cpk = kp_pk kp /\
      bytestrings_from_identifiers ids (k_ser_pk (ke CS) cpk) (k_ser_pk (ke CS) spk) = Ok (u, s) /\
      envelope_keys CS rp (env_nonce env) = Ok (ak, ek) /\
      env_hmac env = h_hmac (hash CS) ak (env_nonce env ++ construct_aad u s (k_ser_pk (ke CS) spk)).
  Proof.
    unfold envelope_seal. destruct (Nat.ltb_spec (length tape) ENVELOPE_NONCE_LEN) as [|Hl]; [discriminate|].
    intros H. apply bind_Ok in H as (kp & Hkp & H). apply bind_Ok in H as ([u s] & Hus & H).
    apply bind_Ok in H as ([ak ek0] & Hk & H). injection H as <- <- <- <-. cbn [env_nonce env_internal env_hmac].
    destruct (take_split tape ENVELOPE_NONCE_LEN Hl). exists kp, u, s, ak. repeat split; auto.
  Qed.

  Lemma envelope_open_Ok env rp spk ids kp ek u s :
    envelope_open CS env rp spk ids = Ok (kp, ek, u, s) ->
    exists ak,
      env_internal env = true /\ recover_keys_internal CS rp (env_nonce env) = Ok kp /\
      bytestrings_from_identifiers ids (k_ser_pk (ke CS) (kp_pk kp)) (k_ser_pk (ke CS) spk) = Ok (u, s) /\
      envelope_keys CS rp (env_nonce env) = Ok (ak, ek) /\
      h_hmac (hash CS) ak (env_nonce env ++ construct_aad u s (k_ser_pk (ke CS) spk)) = env_hmac env.
  Proof.
    unfold envelope_open. destruct (env_internal env); [|discriminate]. cbn [negb]. intros H.
    apply bind_Ok in H as (kp0 & Hkp & H). apply bind_Ok in H as ([u0 s0] & Hus & H).
    apply bind_Ok in H as ([ak ek0] & Hk & H). destruct (bytes_eqb _ _) eqn:Heq; [|discriminate].
    injection H as <- <- <- <-. apply bytes_eqb_eq in Heq. eauto 6.
  Qed.

  Lemma get_password_derived_key_Ok pw r ev ksf rp :
    get_password_derived_key CS pw r ev ksf = Ok rp ->
    exists y z,
      voprf_finalize (hash CS) (oprf CS) r pw ev = Ok y /\
      match ksf with Some f => f y | None => ksf_default CS y end = Some z /\
      rp = hkdf_extract (hash CS) None (y ++ z).
  Proof. unfold get_password_derived_key. intros H. inv_res. eauto. Qed.

  Lemma mask_response_Ok mk nonce spk env m :
    mask_response CS mk nonce spk env = Ok m ->
    exists pad, masking_pad CS mk nonce = Ok pad /\
      m = masked_response_deserialize CS (xor_bytes pad (k_ser_pk (ke CS) spk ++ envelope_serialize env)).
  Proof. unfold mask_response. intros H. inv_res. eauto. Qed.

  Lemma server_setup_new_Ok tape setup rest :
    server_setup_new CS tape = Ok (setup, rest) ->
    exists t1 t2,
      keypair_generate_random CS tape = Ok (ss_keypair setup, t1) /\
      t1 = ss_oprf_seed setup ++ t2 /\ length (ss_oprf_seed setup) = h_len (hash CS) /\
      keypair_generate_random CS t2 = Ok (ss_fake_keypair setup, rest).
  Proof.
    unfold server_setup_new. intros H. apply bind_Ok in H as ([kp t1] & Hkp & H).
    destruct (Nat.ltb_spec (length t1) (h_len (hash CS))) as [|Hl]; [discriminate|].
    apply bind_Ok in H as ([fk t2] & Hfk & H). injection H as <- <-.
    destruct (take_split t1 _ Hl). eauto 6.
  Qed.

  Lemma client_registration_start_Ok tape pw st m rest :
    client_registration_start CS tape pw = Ok (st, m, rest) ->
    voprf_blind (oprf CS) tape pw = Ok (crs_blind st, rq_blinded m, rest) /\ crs_blinded st = rq_blinded m.
  Proof.
    unfold client_registration_start. intros H. apply bind_Ok in H as ([[r b] t] & Hb & H).
    injection H as <- <- <-. auto.
  Qed.

  Lemma server_registration_start_Ok {S} (setup : ServerSetup Pk Sk S) m cred r :
    server_registration_start CS setup m cred = Ok r ->
    server_evaluate CS (ss_oprf_seed setup) cred (rq_blinded m) = Ok (rr_eval r) /\
    rr_server_s_pk r = kp_pk (ss_keypair setup).
  Proof. unfold server_registration_start. intros H. inv_res. subst r. auto. Qed.

  Lemma client_registration_finish_Ok st tape pw rr ids ksf upload ek spk rest :
    client_registration_finish CS st tape pw rr ids ksf = Ok (upload, ek, spk, rest) ->
    spk = rr_server_s_pk rr /\
    exists rp,
      get_password_derived_key CS pw (crs_blind st) (rr_eval rr) ksf = Ok rp /\
      hkdf_expand (hash CS) rp STR_MASKING_KEY (h_len (hash CS)) = Some (ru_masking_key upload) /\
      envelope_seal CS tape rp spk ids = Ok (ru_envelope upload, ru_client_s_pk upload, ek, rest).
  Proof.
    unfold client_registration_finish. destruct (o_eqb (oprf CS) _ _); [discriminate|]. intros H.
    apply bind_Ok in H as (rp & Hrp & H). apply bind_Ok in H as (mk & Hmk & H).
    apply bind_Ok in H as ([[[env cpk] ek0] t] & Hseal & H). injection H as <- <- <- <-.
    apply of_option_Ok in Hmk. eauto 6.
  Qed.

  Lemma client_login_start_Ok tape pw st m rest :
    client_login_start CS tape pw = Ok (st, m, rest) ->
    m = cl_request st /\
    exists t1, voprf_blind (oprf CS) tape pw = Ok (cl_blind st, cq_blinded m, t1) /\
               generate_ke1 CS t1 = Ok (cl_ke1_state st, cq_ke1 m, rest).
  Proof.
    unfold client_login_start. intros H. apply bind_Ok in H as ([[r b] t1] & Hb & H).
    apply bind_Ok in H as ([[ks km] t2] & Hk & H). injection H as <- <- <-. eauto.
  Qed.

  Lemma hkdf_expand_label_Ok secret label context out :
    hkdf_expand_label CS secret label context = Ok out ->
    exists a b c,
      i2osp_nat 2 (h_len (hash CS)) = Some a /\ lenprefix 1 (STR_OPAQUE ++ label) = Some b /\ lenprefix 1 context = Some c /\
      hkdf_expand (hash CS) secret (a ++ b ++ c) (h_len (hash CS)) = Some out.
  Proof. unfold hkdf_expand_label. intros H. inv_res. eauto 8. Qed.

  Lemma derive_3dh_keys_Ok dh1 dh2 dh3 th sk km2 km3 hs :
    derive_3dh_keys CS dh1 dh2 dh3 th = Ok (sk, km2, km3, hs) ->
    let prk := hkdf_extract (hash CS) None (dh1 ++ dh2 ++ dh3) in
    hkdf_expand_label CS prk STR_HANDSHAKE_SECRET th = Ok hs /\
    hkdf_expand_label CS prk STR_SESSION_KEY th = Ok sk /\
    hkdf_expand_label CS hs STR_SERVER_MAC [] = Ok km2 /\
    hkdf_expand_label CS hs STR_CLIENT_MAC [] = Ok km3.
  Proof.
    unfold derive_3dh_keys, hkdf_expand_label_from_prk. intros H.
    apply bind_Ok in H as (hs0 & Hhs & H). apply bind_Ok in H as (sk0 & Hsk & H).
    destruct (length hs0 <? h_len (hash CS)); [discriminate|].
    apply bind_Ok in H as (k2 & Hk2 & H). apply bind_Ok in H as (k3 & Hk3 & H). injection H as <- <- <- <-. auto.
  Qed.

  Section Ke2.
    Context {S : Type}.
    Variable SK : SkOps Pk S.

    Lemma generate_ke2_Ok tape req l2 ke1 cpk ssk u s ctx st ke2 rest dbg :
      generate_ke2 CS SK tape req l2 ke1 cpk ssk u s ctx = Ok (st, ke2, rest, dbg) ->
      exists esk t1 pre dh2 hs,
        keypair_generate_random CS tape = Ok ({| kp_pk := k2_server_e_pk ke2; kp_sk := esk |}, t1) /\
        generate_nonce t1 = Ok (k2_nonce ke2, rest) /\
        preamble ctx u req s l2 (k2_nonce ke2) (k_ser_pk (ke CS) (k2_server_e_pk ke2)) = Ok pre /\
        s_dh SK ssk (k1_client_e_pk ke1) = Ok dh2 /\
        derive_3dh_keys CS (k_dh (ke CS) (k1_client_e_pk ke1) esk) dh2 (k_dh (ke CS) cpk esk) (h_hash (hash CS) pre)
          = Ok (sl_session_key st, snd dbg, sl_km3 st, hs) /\
        k2_mac ke2 = h_hmac (hash CS) (snd dbg) (h_hash (hash CS) pre) /\
        sl_hashed_transcript st = h_hash (hash CS) (pre ++ k2_mac ke2).
    Proof.
      unfold generate_ke2. intros H. apply bind_Ok in H as ([[epk esk] t1] & Hkp & H).
      apply bind_Ok in H as ([sn t2] & Hn & H). apply bind_Ok in H as (pre & Hpre & H).
      apply bind_Ok in H as (dh2 & Hdh & H). apply bind_Ok in H as ([[[sk km2] km3] hs] & Hk & H).
      injection H as <- <- <- <-. eauto 12.
    Qed.

    Lemma server_login_start_Ok tape (setup : ServerSetup Pk Sk S) file rq cred ctx ids st resp rest dbg :
      server_login_start CS SK tape setup file rq cred ctx ids = Ok (st, resp, rest, dbg) ->
      exists rec t0 t1 spk u s,
        match file with Some x => Ok (x, tape) | None => registration_upload_dummy CS tape setup end = Ok (rec, t0) /\
        s_pub SK (kp_sk (ss_keypair setup)) = Ok spk /\
        t0 = cr_masking_nonce resp ++ t1 /\ length (cr_masking_nonce resp) = KE_NONCE_LEN /\
        mask_response CS (ru_masking_key rec) (cr_masking_nonce resp) spk (ru_envelope rec) = Ok (cr_masked resp) /\
        bytestrings_from_identifiers ids (k_ser_pk (ke CS) (ru_client_s_pk rec)) (k_ser_pk (ke CS) spk) = Ok (u, s) /\
        server_evaluate CS (ss_oprf_seed setup) cred (cq_blinded rq) = Ok (cr_eval resp) /\
        generate_ke2 CS SK t1 (credential_request_serialize CS rq)
                     (credential_response_without_ke (o_ser_e (oprf CS) (cr_eval resp)) (cr_masking_nonce resp) (cr_masked resp))
                     (cq_ke1 rq) (ru_client_s_pk rec) (kp_sk (ss_keypair setup)) u s
                     (match ctx with Some c => c | None => [] end) = Ok (st, cr_ke2 resp, rest, dbg).
    Proof.
      unfold server_login_start. intros H. apply bind_Ok in H as ([rec t0] & Hrec & H).
      apply bind_Ok in H as (spk & Hspk & H).
      destruct (Nat.ltb_spec (length t0) KE_NONCE_LEN) as [|Hl]; [discriminate|].
      apply bind_Ok in H as (masked & Hm & H). apply bind_Ok in H as ([u s] & Hus & H).
      apply bind_Ok in H as (ev & Hev & H). apply bind_Ok in H as ([[[st0 ke2] t2] d] & Hke2 & H).
      injection H as <- <- <- <-. destruct (take_split t0 _ Hl). exists rec, t0. eauto 12.
    Qed.
  End Ke2.

  Lemma registration_upload_dummy_Ok tape {S} (setup : ServerSetup Pk Sk S) rec rest :
    registration_upload_dummy CS tape setup = Ok (rec, rest) ->
    tape = ru_masking_key rec ++ rest /\ length (ru_masking_key rec) = h_len (hash CS) /\
    ru_client_s_pk rec = kp_pk (ss_fake_keypair setup) /\ ru_envelope rec = envelope_dummy CS.
  Proof.
    unfold registration_upload_dummy. destruct (Nat.ltb_spec (length tape) (h_len (hash CS))); [discriminate|].
    intros [= <- <-]. destruct (take_split tape (h_len (hash CS))); auto.
  Qed.

  (* C17: which bytes of the caller's random tape each operation reads, in which order, and what each
     range becomes.  Nonces, seeds and the fake masking key are COPIES of their own range; key pairs are
     DeriveDiffieHellmanKeyPair of theirs; nothing else is read (the rest of the tape is returned untouched).
     Determinism itself is definitional: every operation of the model is a function of its arguments and
     the tape.  (The OPRF blind is the group's random_scalar of the tape's head; its layout, per group, is in
     Theory/BlindLayout.v.) *)

  (* ServerSetup::new: static-key seed, OPRF seed, fake-key seed - in that order *)
  Theorem server_setup_new_layout tape setup rest :
    server_setup_new CS tape = Ok (setup, rest) ->
    exists s1 seed s2,
      tape = s1 ++ seed ++ s2 ++ rest /\
      length s1 = k_Nsk (ke CS) /\ length seed = h_len (hash CS) /\ length s2 = k_Nsk (ke CS) /\
      ss_oprf_seed setup = seed /\
      k_derive (ke CS) (hash CS) (o_id (oprf CS)) s1 = Some (kp_sk (ss_keypair setup)) /\
      k_derive (ke CS) (hash CS) (o_id (oprf CS)) s2 = Some (kp_sk (ss_fake_keypair setup)).
  Proof.
    intros H. apply server_setup_new_Ok in H as (t1 & t2 & Hkp & -> & Lh & Hfk).
    apply keypair_generate_random_Ok in Hkp as (s1 & -> & L1 & D1 & _).
    apply keypair_generate_random_Ok in Hfk as (s2 & -> & L2 & D2 & _).
    exists s1, (ss_oprf_seed setup), s2. auto 10.
  Qed.

  (* registration finish: the envelope nonce is the first 32 bytes, nothing else is read *)
  Theorem envelope_seal_layout tape rp spk ids env cpk ek rest :
    envelope_seal CS tape rp spk ids = Ok (env, cpk, ek, rest) ->
    tape = env_nonce env ++ rest /\ length (env_nonce env) = ENVELOPE_NONCE_LEN.
  Proof. intros H. apply envelope_seal_Ok in H as (kp & u & s & ak & Ht & Ln & _). auto. Qed.

  (* login start, after the blind: ephemeral-key seed, then the client nonce (this one is generate_ke1's inversion lemma) *)
  Theorem generate_ke1_layout tape st m rest :
    generate_ke1 CS tape = Ok (st, m, rest) ->
    exists seed, tape = seed ++ k1_nonce m ++ rest /\ length seed = k_Nsk (ke CS) /\ length (k1_nonce m) = KE_NONCE_LEN /\
      k_derive (ke CS) (hash CS) (o_id (oprf CS)) seed = Some (k1s_client_e_sk st) /\
      k1_client_e_pk m = k_pub (ke CS) (k1s_client_e_sk st) /\ k1s_nonce st = k1_nonce m.
  Proof.
    unfold generate_ke1. intros H. apply bind_Ok in H as ([[pk sk] t1] & Hkp & H).
    apply bind_Ok in H as ([n t2] & Hn & H). injection H as <- <- <-.
    apply keypair_generate_random_Ok in Hkp as (seed & -> & L & D & P). apply generate_nonce_Ok in Hn as [-> Ln].
    exists seed. auto 10.
  Qed.

  (* server login start with a record: masking nonce, ephemeral-key seed, server nonce;
     without a record the fake masking key comes first *)
  Theorem server_login_start_layout {S} {SK : SkOps Pk S} {tape setup file rq cred ctx ids st resp rest dbg} :
    server_login_start CS SK tape setup file rq cred ctx ids = Ok (st, resp, rest, dbg) ->
    exists fmk eseed,
      tape = fmk ++ cr_masking_nonce resp ++ eseed ++ k2_nonce (cr_ke2 resp) ++ rest /\
      length fmk = (match file with Some _ => 0 | None => h_len (hash CS) end) /\
      length (cr_masking_nonce resp) = KE_NONCE_LEN /\ length eseed = k_Nsk (ke CS) /\
      length (k2_nonce (cr_ke2 resp)) = KE_NONCE_LEN /\
      (exists esk, k_derive (ke CS) (hash CS) (o_id (oprf CS)) eseed = Some esk /\
                   k2_server_e_pk (cr_ke2 resp) = k_pub (ke CS) esk).
  Proof.
    intros H. apply server_login_start_Ok in H as (rec & t0 & t1 & spk & u & s & Hrec & _ & -> & Lm & _ & _ & _ & Hke2).
    apply generate_ke2_Ok in Hke2 as (esk & t2 & pre & dh2 & hs & Hkp & Hn & _).
    apply keypair_generate_random_Ok in Hkp as (eseed & -> & Le & D & P). apply generate_nonce_Ok in Hn as [-> Ln].
    destruct file as [f|].
    - injection Hrec as <- ->. exists [], eseed. eauto 10.
    - apply registration_upload_dummy_Ok in Hrec as (-> & Lf & _). exists (ru_masking_key rec), eseed. eauto 10.
  Qed.
End Steps.
