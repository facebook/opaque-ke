(* C13: every state a party must keep between steps - server setup, password file, client
   registration state, client login state, server login state - as produced by the API, decodes
   from its own native encoding to exactly itself.  Saving and reloading at a step boundary
   therefore hands the next step the same value, and the next step is a function of that value:
   nothing observable changes.  (serde encodings are not modelled; the harness performs the real
   bincode / JSON round trips and the model predicts "no change".) *)
From OKE Require Import Suite Voprf Messages Opaque.
From OKE Require Import Steps Roundtrip Laws Layers Honest.

Section Reload.
  Context {E Sc Pk Sk : Type}.
  Variable CS : Suite E Sc Pk Sk.
  Hypothesis HL : HashLaws (hash CS).
  Hypothesis GL : GroupLaws CS.

  Theorem reload_server_setup tape setup rest :
    server_setup_new CS tape = Ok (setup, rest) ->
    server_setup_deserialize CS (private_key_ops (ke CS)) (server_setup_serialize CS (private_key_ops (ke CS)) setup) = Ok setup.
  Proof.
    intros H. apply server_setup_new_Ok in H as (t1 & t2 & Hkp & _ & Ls & Hfk).
    apply (keypair_generate_random_inv CS GL) in Hkp as [V1 P1].
    apply (keypair_generate_random_inv CS GL) in Hfk as [V2 P2].
    now apply server_setup_rt.
  Qed.

  Theorem reload_client_registration tape pw st m rest :
    ve CS (o_h2g (oprf CS) pw (dst_hash_to_group (oprf CS))) ->
    client_registration_start CS tape pw = Ok (st, m, rest) ->
    client_registration_deserialize CS (client_registration_serialize CS st) = Ok st /\
    registration_request_deserialize CS (registration_request_serialize CS m) = Ok m.
  Proof.
    intros HP H. apply client_registration_start_Ok in H as [Hb Heq]. apply (blind_inv CS GL) in Hb as [Hr Hb].
    pose proof (g_mul_valid CS GL _ _ HP Hr) as Hv. rewrite <- Hb in Hv.
    split; [apply client_registration_rt | apply registration_request_rt]; [assumption | now rewrite Heq | assumption].
  Qed.

  Theorem reload_password_file st tape pw rr ids ksf upload ek spk rest :
    client_registration_finish CS st tape pw rr ids ksf = Ok (upload, ek, spk, rest) ->
    registration_upload_deserialize CS (registration_upload_serialize CS (server_registration_finish upload))
      = Ok (server_registration_finish upload).
  Proof.
    unfold server_registration_finish. intros H.
    apply client_registration_finish_Ok in H as (_ & rp & _ & Hmk & Hseal).
    destruct (envelope_open_seal CS HL Hseal) as (kp & u & s & _ & Hkp & Hcpk & _ & Hwf).
    apply (recover_keys_inv CS HL GL) in Hkp as (_ & _ & _ & Hp & Hv).
    apply registration_upload_rt; auto.
    - eapply hkdf_expand_length; eauto.
    - rewrite <- Hcpk, Hp. now apply (g_pub_valid CS GL).
  Qed.

  Theorem reload_client_login {tape pw st m rest} :
    ve CS (o_h2g (oprf CS) pw (dst_hash_to_group (oprf CS))) ->
    client_login_start CS tape pw = Ok (st, m, rest) ->
    client_login_deserialize CS (client_login_serialize CS st) = Ok st /\
    credential_request_deserialize CS (credential_request_serialize CS m) = Ok m.
  Proof.
    intros HP H. apply (client_login_start_inv CS GL) in H as (-> & Hr & Hb & Hsk & Hpk & Ln & Hn).
    pose proof (g_mul_valid CS GL _ _ HP Hr) as Hv. rewrite <- Hb in Hv.
    pose proof (g_identity_invalid CS GL _ Hv) as Hid.
    pose proof (g_pub_valid CS GL _ Hsk) as Hpkv. rewrite <- Hpk in Hpkv.
    assert (He : wf_elem_nonid CS (cq_blinded (cl_request st))) by (split; assumption).
    assert (Hk : wf_ke1 CS (cq_ke1 (cl_request st))) by (split; assumption).
    split; [apply client_login_rt | apply credential_request_rt]; auto. now rewrite Hn.
  Qed.

  Theorem reload_server_login {S} {SK : SkOps Pk S} {tape setup file rq cred ctx ids st resp rest dbg} :
    server_login_start CS SK tape setup file rq cred ctx ids = Ok (st, resp, rest, dbg) ->
    server_login_deserialize CS (server_login_serialize st) = Ok st.
  Proof.
    intros H. apply server_login_start_Ok in H as (rec & t0 & t1 & spk & u & s & _ & _ & _ & _ & _ & _ & _ & Hke2).
    apply generate_ke2_Ok in Hke2 as (esk & t2 & pre & dh2 & hs & _ & _ & _ & _ & Hkeys & _ & Hth).
    apply derive_3dh_keys_Ok in Hkeys as (_ & Hsk & _ & Hkm3).
    apply server_login_rt; [| rewrite Hth; apply (hash_len _ HL) |]; eapply hkdf_expand_label_length; eauto.
  Qed.
End Reload.
