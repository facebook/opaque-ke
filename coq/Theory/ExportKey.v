(* C16 (separation): the keys derived from the randomized password are Expands of one block - single HMACs - of
   visibly different infos, so the export key equals the envelope's authentication key, the masking key, a session
   key, or the export key of another (randomized password, envelope nonce) only if an HMAC collision is exhibited
   (KeySchedule.expand_block_inj, then the fact about the two infos). *)
From Coq Require Import List Lia.
From Coq Require Import Init.Byte.
From OKE Require Import Bytes Suite Generated Hkdf Envelope TripleDH.
From OKE Require Import BytesLemmas Steps Laws Bad KeySchedule.
Import ListNotations.

Section EK.
  Context {E Sc Pk Sk : Type}.
  Variable CS : Suite E Sc Pk Sk.
  Hypothesis HL : HashLaws (hash CS).

  (* the export key is not the authentication key of the same envelope *)
  Theorem export_key_is_not_auth_key rp nonce ak ek :
    envelope_keys CS rp nonce = Ok (ak, ek) -> ek = ak -> Bad (hash CS).
  Proof.
    intros [Ha He]%envelope_keys_Ok <-.
    destruct (expand_block_inj HL eq_refl Ha He) as [[_ Hi%app_inv_head]|HB]; [discriminate Hi | exact HB].
  Qed.

  (* nor the masking key stored in the password file *)
  Theorem export_key_is_not_masking_key rp nonce ak ek mk :
    length nonce = ENVELOPE_NONCE_LEN ->
    envelope_keys CS rp nonce = Ok (ak, ek) ->
    hkdf_expand (hash CS) rp STR_MASKING_KEY (h_len (hash CS)) = Some mk -> ek = mk -> Bad (hash CS).
  Proof.
    intros Hn [_ He]%envelope_keys_Ok Hmk <-.
    destruct (expand_block_inj HL eq_refl He Hmk) as [[_ Hi]|HB]; [|exact HB].
    apply (f_equal (@length byte)) in Hi. rewrite app_length, Hn in Hi. discriminate Hi.
  Qed.

  (* another registration (fresh envelope nonce), another password, user or server (another randomized
     password): a different export key, or an HMAC collision *)
  Theorem export_keys_separated rp nonce ak ek rp' nonce' ak' ek' :
    length rp = length rp' -> length nonce = length nonce' ->
    envelope_keys CS rp nonce = Ok (ak, ek) -> envelope_keys CS rp' nonce' = Ok (ak', ek') ->
    ek = ek' -> (rp = rp' /\ nonce = nonce') \/ Bad (hash CS).
  Proof.
    intros Lr _ [_ He]%envelope_keys_Ok [_ He']%envelope_keys_Ok <-.
    destruct (expand_block_inj HL Lr He He') as [[Hr Hi%app_inv_tail]|HB]; auto.
  Qed.

  (* the session key is Expand under another key of an info of another length: it equals the export key
     only with an exhibited collision *)
  Theorem session_key_is_not_export_key rp nonce ak ek prk th sk :
    length nonce = ENVELOPE_NONCE_LEN -> length th = h_len (hash CS) -> length prk = length rp ->
    h_len (hash CS) <> 20 ->      (* 21 + Nh is the length of the Expand-Label info, 41 that of the export-key info *)
    envelope_keys CS rp nonce = Ok (ak, ek) ->
    hkdf_expand_label CS prk STR_SESSION_KEY th = Ok sk -> sk = ek -> Bad (hash CS).
  Proof.
    intros Hn Hth Hl Hnh [_ He]%envelope_keys_Ok (a & b & c & Ha & Hb & Hc & Hsk)%(hkdf_expand_label_Ok CS) <-.
    destruct (expand_block_inj HL Hl Hsk He) as [[_ Hi]|HB]; [|exact HB].
    apply (f_equal (@length byte)) in Hi. rewrite !app_length, Hn in Hi.
    apply lenprefix_length in Hb, Hc. unfold i2osp_nat in Ha. apply i2osp_Some in Ha as (La & _).
    rewrite La, Hb, Hc, Hth in Hi. cbn in Hi. lia.
  Qed.
End EK.
