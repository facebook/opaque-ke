(* C02: after an honest registration with password pw, a login attempt with ANY other password pw'
   against the honest server is never accepted by the client - unless one of the explicit bad events
   (a collision of HMAC, of the hash, of HKDF-Expand, of the key derivation, or of Diffie-Hellman in the
   private key) is exhibited.  The chain runs backwards from the server MAC the client verified. *)
From Coq Require Import List.
From OKE Require Import Bytes Suite Voprf Messages Opaque.
From OKE Require Import ListLemmas ResultLemmas Steps Laws Layers Transcript Bad Honest ClientAccept KeySchedule.

Section WP.
  Context {E Sc Pk Sk : Type}.
  Variable CS : Suite E Sc Pk Sk.
  Hypothesis HL : HashLaws (hash CS).
  Hypothesis GL : GroupLaws CS.
  Hypothesis sk_eq_dec : forall a b : Sk, {a = b} + {a <> b}.

  (* The randomized password is HMAC(0, y || z), y the OPRF output (the hash of the Finalize input), z the stretched y.
     It determines the password, the evaluated element and the stretched value, up to a collision of HMAC or the hash. *)
  Lemma rpwd_determines_inputs {pw Q ksf pw' Q' ksf' rp} :
    ve CS Q -> ve CS Q' -> rpwd CS pw Q ksf = Ok rp -> rpwd CS pw' Q' ksf' = Ok rp ->
    (pw' = pw /\ Q = Q' /\
     exists y z, oprf_output CS pw Q = Ok y /\
       match ksf with Some f => f y | None => ksf_default CS y end = Some z /\
       match ksf' with Some f => f y | None => ksf_default CS y end = Some z)
    \/ Bad (hash CS).
  Proof.
    intros [D L] [D' L'] H H'.
    apply bind_Ok in H as (y & Hy & H). apply bind_Ok in H as (z & Hz%of_option_Ok & [= <-]).
    apply bind_Ok in H' as (y' & Hy' & H'). apply bind_Ok in H' as (z' & Hz'%of_option_Ok & [= Hrp]).
    pose proof Hy as Hout. unfold oprf_output in Hy, Hy'.
    destruct (i2osp_nat 2 (length pw)) as [l|] eqn:Hl; [|discriminate].
    destruct (i2osp_nat 2 (length pw')) as [l'|] eqn:Hl'; [|discriminate].
    injection Hy as Hy. injection Hy' as Hy'.
    (* same HMAC(0, y || z): same OPRF output and same stretched value, or an HMAC collision *)
    destruct (mac_inj eq_refl Hrp) as [[_ Hyz]|HB]; [|now right].
    apply app_eq_len in Hyz as [-> ->]; [|rewrite <- Hy, <- Hy'; now rewrite !(hash_len _ HL)].
    (* same OPRF output: same Finalize input, or a hash collision *)
    rewrite <- Hy in Hy'. destruct (hash_inj Hy') as [Hin|HB]; [|now right].
    (* the Finalize input is an injective encoding of the password and of the evaluated element *)
    destruct (finalize_input_injective CS _ _ _ _ _ _ Hl' Hl (eq_trans L' (eq_sym L)) Hin) as [Hpw Hser].
    left. rewrite Hser, D in D'. injection D' as Hel. split; [exact Hpw|]. split; [exact Hel|]. exists y, z. auto.
  Qed.

  (* After an honest registration of (pw, cred, ksf): a login in which the client types pw' and stretches with ksf', and
     the honest server evaluates under cred', if accepted, used the registration's password, an OPRF key with the same
     action on the password's group element, and a stretching function that agrees with the registration's on the OPRF
     output - or a collision is exhibited.  Backwards from the server MAC the client verified.  Nothing is assumed of
     the setup: the server's keys may be any values. *)
  Theorem accepted_login_chain
          {setup : ServerSetup Pk Sk Sk}
          {tr pw creg rq t2 cred rr tf ids ksf upload ek spk t3 pw' cred' ksf' tc clog ke1 t4 tv ctx slog ke2 t5 dbg out} :
    let P := o_h2g (oprf CS) pw (dst_hash_to_group (oprf CS)) in
    ve CS P ->
    ve CS (o_h2g (oprf CS) pw' (dst_hash_to_group (oprf CS))) ->
    client_registration_start CS tr pw = Ok (creg, rq, t2) ->
    server_registration_start CS setup rq cred = Ok rr ->
    client_registration_finish CS creg tf pw rr ids ksf = Ok (upload, ek, spk, t3) ->
    client_login_start CS tc pw' = Ok (clog, ke1, t4) ->
    server_login_start CS (private_key_ops (ke CS)) tv setup (Some (server_registration_finish upload)) ke1 cred' ctx ids
      = Ok (slog, ke2, t5, dbg) ->
    client_login_finish CS clog pw' ke2 ctx ids ksf' = Ok out ->
    (exists k k' y z,
       oprf_key CS (ss_oprf_seed setup) cred = Ok k /\ vs CS k /\
       oprf_key CS (ss_oprf_seed setup) cred' = Ok k' /\ vs CS k' /\
       pw' = pw /\ o_mul (oprf CS) P k = o_mul (oprf CS) P k' /\
       voprf_finalize (hash CS) (oprf CS) (crs_blind creg) pw (rr_eval rr) = Ok y /\
       match ksf with Some f => f y | None => ksf_default CS y end = Some z /\
       match ksf' with Some f => f y | None => ksf_default CS y end = Some z)
    \/ BadS CS.
  Proof.
    intros P HP HP' Hrs Hsr Hrf Hls Hss Hacc.
    (* the registration: randomized password, client key *)
    destruct (honest_registration CS GL HP Hrs Hsr Hrf)
      as (k & rp & Hk & Hkv & Hr & Hevr & Hrp & _ & Hseal & ->).
    apply envelope_seal_Ok in Hseal as (ckp & _ & _ & _ & _ & _ & _ & Hckp & Hcpk & _).
    apply (recover_keys_inv CS HL GL) in Hckp as (seed & Hseed & Hder & Hcpkp & Hcsv).
    (* the login attempt: what the server did, what the client checked *)
    apply (client_login_start_inv CS GL) in Hls as (-> & Hr' & Hb' & _).
    apply server_login_start_Ok in Hss as (rec & t0 & tn & spk' & u & s & Hrec & Hspk' & _ & _ & _ & _ & Hev & Hke2).
    injection Hrec as <- <-. injection Hspk' as <-.
    apply (server_evaluate_inv CS GL) in Hev as (k' & Hk' & Hevr' & Hkv').
    apply generate_ke2_Ok in Hke2 as (se & te & pre & dh2 & hs & Hse & _ & _ & Hdh2 & Hkeys & Hmac & _).
    apply (keypair_generate_random_inv CS GL) in Hse as [Hsev Hsepk]. injection Hdh2 as <-.
    cbn [kp_pk kp_sk] in Hsev, Hsepk. unfold server_registration_finish in *. rewrite Hcpk, Hcpkp in Hkeys.
    destruct out as [[[[fin skc] ekc] spkc] dbgc].
    apply client_accepts_iff in Hacc
      as (rp' & mk' & env' & kp' & u' & s' & pre' & km2' & km3' & hs' & _ & Hrp' & _ & _ & Hopen & _ & Hkeys' & Hmac' & _).
    rewrite Hevr', Hb', (rpwd_of_blinded CS GL) in Hrp' by assumption.
    apply envelope_open_Ok in Hopen as (ak' & _ & Hckp' & _).
    apply (recover_keys_inv CS HL GL) in Hckp' as (seed' & Hseed' & Hder' & _ & Hcsv').
    (* 1. equal server MACs: equal Diffie-Hellman inputs, or an HMAC collision *)
    rewrite Hmac in Hmac'.
    destruct (server_mac_determines_inputs CS HL _ _ _ _ _ _ _ _ _ _ _ _ _ _ _ _ Hkeys Hkeys' Hmac') as [(Hdh & _)|HB];
      [|right; exact (BS_hash CS HB)].
    (* of which the third is the client's static key against the server's ephemeral key *)
    rewrite Hsepk, !app_assoc in Hdh.
    apply app_inv_len_tail in Hdh as [_ Hdh3]; [|rewrite !(g_dh_len CS GL); auto using (g_pub_valid CS GL)].
    (* 2. same client static key, or a DH collision *)
    rewrite (g_dh_sym CS GL _ _ Hcsv Hsev) in Hdh3.
    destruct (sk_eq_dec (kp_sk ckp) (kp_sk kp')) as [Hcs|Hcs]; [|right; exact (BS_dh CS _ _ _ Hcs Hdh3)].
    (* 3. same derived key: same seed, or a derivation collision *)
    rewrite <- Hcs in Hder'.
    destruct (list_eq_dec Byte.byte_eq_dec seed seed') as [<-|Hs]; [|right; exact (BS_derive CS _ _ _ Hs Hder Hder')].
    (* 4. same seed: same randomized password, or an Expand collision *)
    destruct (expand_inj CS Hseed Hseed') as [[<- _]|HB]; [|now right].
    (* 5. same randomized password: same password, evaluated element and stretched value, or an HMAC / hash collision *)
    destruct (rpwd_determines_inputs (g_mul_valid CS GL _ _ HP Hkv) (g_mul_valid CS GL _ _ HP' Hkv') Hrp Hrp')
      as [(-> & Hel & y & z & Hy & Hz)|HB]; [|right; exact (BS_hash CS HB)].
    left. exists k, k', y, z. rewrite Hevr, (oprf_unblind CS GL) by assumption. auto 10.
  Qed.

  Theorem wrong_password_never_accepted
          tape setup t1 pw creg rq t2 cred rr ids ksf upload ek spk t3 pw' clog ke1 t4 ctx slog ke2 t5 dbg out :
    ve CS (o_h2g (oprf CS) pw (dst_hash_to_group (oprf CS))) ->
    ve CS (o_h2g (oprf CS) pw' (dst_hash_to_group (oprf CS))) ->
    server_setup_new CS tape = Ok (setup, t1) ->
    client_registration_start CS t1 pw = Ok (creg, rq, t2) ->
    server_registration_start CS setup rq cred = Ok rr ->
    client_registration_finish CS creg t2 pw rr ids ksf = Ok (upload, ek, spk, t3) ->
    pw' <> pw ->
    client_login_start CS t3 pw' = Ok (clog, ke1, t4) ->
    server_login_start CS (private_key_ops (ke CS)) t4 setup (Some (server_registration_finish upload)) ke1 cred ctx ids
      = Ok (slog, ke2, t5, dbg) ->
    client_login_finish CS clog pw' ke2 ctx ids ksf = Ok out ->
    BadS CS.
  Proof.
    intros HP HP' _ Hrs Hsr Hrf Hne Hls Hss Hacc.
    destruct (accepted_login_chain HP HP' Hrs Hsr Hrf Hls Hss Hacc) as [(k & k' & y & z & _ & _ & _ & _ & Hpw & _)|HB];
      [contradiction | exact HB].
  Qed.
End WP.
