(* GroupLaws, split into what is PROVED about the concrete suites and what stays a hypothesis.

   [GroupLaws] (Theory/Laws.v) has fifteen fields.  Nine of them are statements about encodings,
   samplers and derivations - byte-level code of the model - and are proved here for each of the 20
   concrete suites (three of them follow from [CodecLaws], already proved for the 20 suites).  The other
   six are facts of elliptic-curve arithmetic (the group is a group, point decompression inverts
   compression); they are collected in [CurveLaws], which is therefore the ONLY hypothesis the
   generic theorems carry when they are instantiated at a concrete suite:

       all_suites (fun CS => CurveLaws CS -> GroupLaws CS).

   No elliptic-curve formalisation is available in this sandbox and the primality of the field orders
   (needed for "a square has exactly two roots") is out of reach of vm_compute certificates we could
   write by hand; the correspondence check exercises exactly these six facts against the four Rust
   curve implementations (C09 primitives battery, C19 laws battery).  For the toy suite all fifteen
   are proved (Toy/Toy.v). *)
From Coq Require Import Bool ZArith.
From OKE Require Import Suite Weierstrass Curve25519 Suites.
From OKE Require Import BytesLemmas FieldLemmas Codecs Laws CodecsConcrete GroupsConcrete BlindLayout.

Section Split.
  Context {E Sc Pk Sk : Type}.
  Variable CS : Suite E Sc Pk Sk.

  (* elliptic-curve arithmetic: hypotheses for the concrete curves *)
  Record CurveLaws : Prop := {
    c_mul_valid : forall P s, ve CS P -> vs CS s -> ve CS (o_mul (oprf CS) P s);
    c_mul_comm : forall P a b, ve CS P -> vs CS a -> vs CS b ->
                 o_mul (oprf CS) (o_mul (oprf CS) P a) b = o_mul (oprf CS) (o_mul (oprf CS) P b) a;
    c_mul_inv : forall P r, ve CS P -> vs CS r -> o_mul (oprf CS) (o_mul (oprf CS) P r) (o_inv (oprf CS) r) = P;
    (* decompression inverts compression on decoded points *)
    c_deser_valid : forall b e, o_deser_e (oprf CS) b = Some e -> ve CS e;
    c_pub_valid : forall s, vk CS s -> vp CS (k_pub (ke CS) s);
    c_dh_sym : forall a b, vk CS a -> vk CS b -> k_dh (ke CS) (k_pub (ke CS) a) b = k_dh (ke CS) (k_pub (ke CS) b) a;
  }.

  (* samplers, hash-to-scalar, comparison, seeded derivation: proved below for the 20 suites *)
  Record EncodingLaws : Prop := {
    e_random_valid : forall t r t', o_random_scalar (oprf CS) t = Some (r, t') -> vs CS r;
    e_h2s_valid : forall m d, o_is_zero (oprf CS) (o_h2s (oprf CS) m d) = false -> vs CS (o_h2s (oprf CS) m d);
    e_eqb_eq : forall a b, o_eqb (oprf CS) a b = true <-> a = b;
    e_identity_invalid : forall P, ve CS P -> o_eqb (oprf CS) (o_identity (oprf CS)) P = false;
    e_derive_valid : forall h id seed s, length seed = k_Nsk (ke CS) -> k_derive (ke CS) h id seed = Some s -> vk CS s;
    (* a shared secret always has the length of a public key (even a degenerate one) *)
    e_dh_len : forall p s, length (k_dh (ke CS) p s) = k_Npk (ke CS);
  }.

  Theorem group_laws_from : CodecLaws CS -> EncodingLaws -> CurveLaws -> GroupLaws CS.
  Proof.
    intros CL [] []. constructor; auto.
    - intros b s Hl H. pose proof (os_canon CS CL b s Hl H) as Hc. split; rewrite Hc; assumption.
    - intros b p H. pose proof (k_canon CS CL b p H) as Hc. split; rewrite Hc; [exact H | exact (k_pk_len CS CL b p H)].
    - intros b s Hl H. pose proof (ks_canon CS CL b s Hl H) as Hc. split; rewrite Hc; assumption.
  Qed.

  (* and back: the split loses nothing *)
  Theorem curve_laws_of : GroupLaws CS -> CurveLaws.
  Proof.
    intros []. constructor; assumption.
  Qed.
End Split.

Definition oprf_enc {E Sc} (O : OprfOps E Sc) : Prop :=
  (forall t r t', o_random_scalar O t = Some (r, t') -> o_deser_s O (o_ser_s O r) = Some r /\ length (o_ser_s O r) = o_Nok O) /\
  (forall m d, o_is_zero O (o_h2s O m d) = false ->
               o_deser_s O (o_ser_s O (o_h2s O m d)) = Some (o_h2s O m d) /\ length (o_ser_s O (o_h2s O m d)) = o_Nok O) /\
  (forall a b, o_eqb O a b = true <-> a = b) /\
  (forall P, o_deser_e O (o_ser_e O P) = Some P -> o_eqb O (o_identity O) P = false).

Definition ke_enc {Pk Sk} (K : KeOps Pk Sk) : Prop :=
  (forall h id seed s, length seed = k_Nsk K -> k_derive K h id seed = Some s ->
                       k_deser_sk K (k_ser_sk K s) = Some s /\ length (k_ser_sk K s) = k_Nsk K) /\
  (forall p s, length (k_dh K p s) = k_Npk K).

Lemma mk_suite_enc {E Sc Pk Sk} h (O : OprfOps E Sc) (K : KeOps Pk Sk) :
  oprf_enc O -> ke_enc K -> EncodingLaws (mk_suite h O K).
Proof.
  intros (H1 & H2 & H3 & H4) [H5 H6]. constructor; unfold vs, ve, vk; cbn [mk_suite oprf ke]; try assumption.
  intros P [HP _]. exact (H4 P HP).
Qed.

Lemma r_scalar_vs k : (0 < k < ell)%Z -> r_deser_scalar (r_ser_scalar k) = Some k /\ length (r_ser_scalar k) = 32.
Proof. intros H. split; [now apply r_scalar_roundtrip | unfold r_ser_scalar; apply Z_to_bytes_le_length]. Qed.

Lemma O_R255_enc : oprf_enc O_R255.
Proof.
  (* the goal is stated in terms of [rb_deser] before anything else: if the last case reaches Qed with
     [o_deser_e O_R255 (o_ser_e O_R255 (o_identity O_R255))] in it, the kernel compares that with
     [rb_deser rb_identity] by evaluating the whole decoder *)
  unfold oprf_enc, O_R255, oprf_ristretto;
    cbn [o_random_scalar o_deser_s o_ser_s o_Nok o_is_zero o_h2s o_eqb o_deser_e o_ser_e o_identity].
  split; [|split; [|split]].
  - intros t r t' H. apply r_scalar_vs. exact (r_random_scalar_range H).
  - intros m d H. apply r_scalar_vs. now apply r_h2s_range.
  - apply bytes_eqb_eq.
  - intros P H. apply bytes_eqb_neq. intros <-. rewrite ristretto_rejects_identity in H. discriminate.
Qed.

(* decoded ristretto elements are valid (this CurveLaws field is provable for the ristretto OPRF) *)
Lemma O_R255_deser_valid b e : o_deser_e O_R255 b = Some e -> o_deser_e O_R255 (o_ser_e O_R255 e) = Some e /\ length (o_ser_e O_R255 e) = 32.
Proof. unfold O_R255, oprf_ristretto; cbn [o_deser_e o_ser_e]. intros H. pose proof (ristretto_pk_valid _ _ H) as (-> & Hl & _). split; assumption. Qed.

Lemma K_R255_enc : ke_enc K_R255.
Proof.
  split; [|intros p s; cbn [K_R255 ke_ristretto k_dh k_Npk]; unfold rb_mul; apply r_ser_length].
  intros h id seed s _ H. apply r_scalar_vs. exact (r_derive_valid _ _ _ _ H).
Qed.

Lemma K_X25519_enc : ke_enc K_X25519.
Proof.
  split; [|intros p s; cbn [K_X25519 ke_x25519 k_dh k_Npk]; unfold x25519; apply mont_mul_bits_length].
  intros h id seed s Hl H.
  injection H as <-. split; [now apply x25519_clamped_is_valid_key | now apply clamp_length].
Qed.

Section W.
  Variable C : wcurve.
  Hypothesis order_fits : (0 < w_n C < 256 ^ Z.of_nat (w_Nfe C))%Z.
  Hypothesis p_pos : (0 < w_p C)%Z.

  Lemma w_scalar_vs k : (0 < k < w_n C)%Z -> w_deser_scalar C (w_ser_scalar C k) = Some k /\ length (w_ser_scalar C k) = w_Nfe C.
  Proof. intros H. split; [now apply w_scalar_roundtrip | unfold w_ser_scalar; apply Z_to_bytes_be_length]. Qed.

  Lemma w_eqb_eq (P Q : wpoint) : w_eqb P Q = true <-> P = Q.
  Proof.
    destruct P as [[x1 y1]|], Q as [[x2 y2]|]; cbn [w_eqb]; try (split; [discriminate | intros [=]]); try tauto.
    rewrite andb_true_iff, !Z.eqb_eq. split; [intros [-> ->]; reflexivity | intros [= -> ->]; auto].
  Qed.

  Lemma O_W_enc h id : oprf_enc (oprf_weierstrass C h id).
  Proof.
    split; [|split; [|split]].
    - intros t r t' H. apply w_scalar_vs. exact (w_random_scalar_range C H).
    - intros m d H. apply w_scalar_vs. now apply w_h2s_range.
    - apply w_eqb_eq.
    - intros P H. destruct P as [[x y]|]; [reflexivity|].
      apply (w_decoder_only_accepts_curve_points C p_pos) in H as (_ & x & y & Hc & _). discriminate.
  Qed.

  Lemma K_W_enc : ke_enc (ke_weierstrass C).
  Proof.
    split; [|intros p s; cbn [ke_weierstrass k_dh k_Npk]; apply w_ser_length].
    intros h id seed s _ H. apply w_scalar_vs. exact (proj1 (w_derive_valid C order_fits _ _ _ _ H)).
  Qed.
End W.

Theorem encoding_laws_20 : all_suites (fun _ _ _ _ CS => EncodingLaws CS).
Proof.
  exact (all_suites_product (fun _ _ _ => oprf_enc) (@ke_enc) _ (fun _ _ _ _ => mk_suite_enc)
           O_R255_enc (O_W_enc P256 P256_order_fits eq_refl _ _) (O_W_enc P384 P384_order_fits eq_refl _ _)
           (O_W_enc P521 P521_order_fits eq_refl _ _)
           K_R255_enc (K_W_enc P256 P256_order_fits) (K_W_enc P384 P384_order_fits) (K_W_enc P521 P521_order_fits)
           K_X25519_enc).
Qed.

(* the hypothesis the generic theorems carry at a concrete suite is CurveLaws alone *)
Theorem group_laws_20 : all_suites (fun _ _ _ _ CS => CurveLaws CS -> GroupLaws CS).
Proof. exact (all_suites_map2 _ _ _ (fun _ _ _ _ => group_laws_from) codec_laws_20 encoding_laws_20). Qed.
