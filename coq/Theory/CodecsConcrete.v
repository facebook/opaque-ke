(* The element-level codec laws ([CodecLaws]) for the concrete groups, proved for each of the 20 suites
   without hypothesis: scalar codecs of all groups (I2OSP / OS2IP ranges, X25519 raw strings), NIST public
   keys (the decoder re-encodes what it decoded and compares), ristretto255 elements (represented by their
   canonical encoding, so the decoder returns its input), X25519 public keys (raw bytes), element lengths.
   [all_suites] is the notion "at each of the 20 suites"; the theorems about the 20 suites ([codec_laws_20] here,
   the other [.._20] elsewhere) are obtained through [all_suites_product], [all_suites_map2] and [all_suites_map]. *)
From Coq Require Import List Arith.
From OKE Require Import Bytes Suite BytesLemmas FieldLemmas Codecs GroupsConcrete.
From OKE Require Import Sha2 Weierstrass Suites Run.

Section W.
  Variable C : wcurve.

  Lemma w_ser_length P : length (w_ser C P) = w_Npk C.
  Proof.
    unfold w_ser, w_Npk. destruct P as [[x y]|].
    - cbn [length]. now rewrite Z_to_bytes_be_length.
    - unfold zeros. now rewrite repeat_length.
  Qed.

  Lemma ke_w_canon b pk : k_deser_pk (ke_weierstrass C) b = Some pk -> k_ser_pk (ke_weierstrass C) pk = b.
  Proof.
    cbn [ke_weierstrass k_deser_pk k_ser_pk]. destruct (w_deser_gen C true b) as [P|]; [|discriminate].
    destruct (bytes_eqb (w_ser C P) b) eqn:E; [|discriminate]. intros [= <-]. now apply bytes_eqb_eq.
  Qed.

  Lemma ke_w_pk_len b pk : k_deser_pk (ke_weierstrass C) b = Some pk -> length b = k_Npk (ke_weierstrass C).
  Proof.
    cbn [ke_weierstrass k_deser_pk k_Npk]. unfold w_deser_gen.
    destruct (Nat.eqb_spec (length b) (w_Npk C)); cbn [negb]; [auto | discriminate].
  Qed.
End W.

Definition oprf_suite_laws {E Sc} (O : OprfOps E Sc) : Prop :=
  (forall b s, length b = o_Nok O -> o_deser_s O b = Some s -> o_ser_s O s = b) /\
  (forall b e, o_deser_e O b = Some e -> length (o_ser_e O e) = o_Noe O).

Lemma O_R255_laws : oprf_suite_laws O_R255.
Proof.
  split; [exact r_scalar_canon|]. intros b e H. cbn in H |- *.
  now apply ristretto_pk_valid in H as (-> & -> & _).
Qed.
Lemma O_W_laws C h id : oprf_suite_laws (oprf_weierstrass C h id).
Proof. split; [exact (w_scalar_canon C) | intros b e _; exact (w_ser_length C e)]. Qed.

Definition ke_suite_laws {Pk Sk} (K : KeOps Pk Sk) : Prop :=
  (forall b pk, k_deser_pk K b = Some pk -> k_ser_pk K pk = b) /\
  (forall b pk, k_deser_pk K b = Some pk -> length b = k_Npk K) /\
  (forall b s, length b = k_Nsk K -> k_deser_sk K b = Some s -> k_ser_sk K s = b).

Lemma K_W_laws C : ke_suite_laws (ke_weierstrass C).
Proof. split; [exact (ke_w_canon C)|]. split; [exact (ke_w_pk_len C) | exact (w_scalar_canon C)]. Qed.

Lemma K_X25519_laws : ke_suite_laws K_X25519.
Proof.
  split; [|split].
  - intros b pk H. now apply x25519_pk_valid in H as (-> & _).
  - intros b pk H. now apply x25519_pk_valid in H as (_ & -> & _).
  - intros b s _ H. now apply x25519_sk_valid in H as (-> & _).
Qed.

Lemma K_R255_laws : ke_suite_laws K_R255.
Proof.
  split; [|split].
  - intros b pk H. now apply ristretto_pk_valid in H as (-> & _).
  - intros b pk H. now apply ristretto_pk_valid in H as (_ & -> & _).
  - exact r_scalar_canon.
Qed.

Lemma mk_suite_laws {E Sc Pk Sk} h (O : OprfOps E Sc) (K : KeOps Pk Sk) :
  oprf_suite_laws O -> ke_suite_laws K -> CodecLaws (mk_suite h O K).
Proof. intros [H1 H2] (H3 & H4 & H5). constructor; cbn; auto. Qed.

(* a statement about each of the 20 concrete suites *)
Definition all_suites (P : forall E Sc Pk Sk, Suite E Sc Pk Sk -> Prop) : Prop :=
  (P _ _ _ _ (mk_suite SHA512 O_R255 K_R255) /\ P _ _ _ _ (mk_suite SHA512 O_R255 K_P256) /\
   P _ _ _ _ (mk_suite SHA512 O_R255 K_P384) /\ P _ _ _ _ (mk_suite SHA512 O_R255 K_P521) /\
   P _ _ _ _ (mk_suite SHA512 O_R255 K_X25519)) /\
  (P _ _ _ _ (mk_suite SHA256 O_P256 K_R255) /\ P _ _ _ _ (mk_suite SHA256 O_P256 K_P256) /\
   P _ _ _ _ (mk_suite SHA256 O_P256 K_P384) /\ P _ _ _ _ (mk_suite SHA256 O_P256 K_P521) /\
   P _ _ _ _ (mk_suite SHA256 O_P256 K_X25519)) /\
  (P _ _ _ _ (mk_suite SHA384 O_P384 K_R255) /\ P _ _ _ _ (mk_suite SHA384 O_P384 K_P256) /\
   P _ _ _ _ (mk_suite SHA384 O_P384 K_P384) /\ P _ _ _ _ (mk_suite SHA384 O_P384 K_P521) /\
   P _ _ _ _ (mk_suite SHA384 O_P384 K_X25519)) /\
  (P _ _ _ _ (mk_suite SHA512 O_P521 K_R255) /\ P _ _ _ _ (mk_suite SHA512 O_P521 K_P256) /\
   P _ _ _ _ (mk_suite SHA512 O_P521 K_P384) /\ P _ _ _ _ (mk_suite SHA512 O_P521 K_P521) /\
   P _ _ _ _ (mk_suite SHA512 O_P521 K_X25519)).

(* [all_suites] is the product of the four (hash, OPRF group) pairs with the five key-exchange groups:
   a statement that follows from a fact about the OPRF half and a fact about the key-exchange half
   holds at the 20 suites once the two facts are proved at the four pairs and the five groups. *)
Lemma all_suites_product (PO : forall E Sc, HashOps -> OprfOps E Sc -> Prop) (PK : forall Pk Sk, KeOps Pk Sk -> Prop)
      (P : forall E Sc Pk Sk, Suite E Sc Pk Sk -> Prop) :
  (forall E Sc Pk Sk h (O : OprfOps E Sc) (K : KeOps Pk Sk), PO _ _ h O -> PK _ _ K -> P _ _ _ _ (mk_suite h O K)) ->
  PO _ _ SHA512 O_R255 -> PO _ _ SHA256 O_P256 -> PO _ _ SHA384 O_P384 -> PO _ _ SHA512 O_P521 ->
  PK _ _ K_R255 -> PK _ _ K_P256 -> PK _ _ K_P384 -> PK _ _ K_P521 -> PK _ _ K_X25519 ->
  all_suites P.
Proof. intros H o1 o2 o3 o4 k1 k2 k3 k4 k5. unfold all_suites. repeat split; apply H; assumption. Qed.

Lemma all_suites_map2 (P Q R : forall E Sc Pk Sk, Suite E Sc Pk Sk -> Prop) :
  (forall E Sc Pk Sk CS, P E Sc Pk Sk CS -> Q E Sc Pk Sk CS -> R E Sc Pk Sk CS) ->
  all_suites P -> all_suites Q -> all_suites R.
Proof.
  unfold all_suites. intros H HP HQ. decompose [and] HP. decompose [and] HQ. repeat split; apply H; assumption.
Qed.

Lemma all_suites_map (P R : forall E Sc Pk Sk, Suite E Sc Pk Sk -> Prop) :
  (forall E Sc Pk Sk CS, P E Sc Pk Sk CS -> R E Sc Pk Sk CS) -> all_suites P -> all_suites R.
Proof. intros H HP. apply (all_suites_map2 P P R); [intros E Sc Pk Sk CS HC _; now apply H | assumption | assumption]. Qed.

Theorem codec_laws_20 : all_suites (fun _ _ _ _ CS => CodecLaws CS).
Proof.
  exact (all_suites_product (fun _ _ _ => oprf_suite_laws) (@ke_suite_laws) _ (fun _ _ _ _ => mk_suite_laws)
           O_R255_laws (O_W_laws _ _ _) (O_W_laws _ _ _) (O_W_laws _ _ _)
           K_R255_laws (K_W_laws _) (K_W_laws _) (K_W_laws _) K_X25519_laws).
Qed.

Lemma run_with_request {E Sc} h (O : OprfOps E Sc) k q :
  (forall t, q <> Api.QKeRandomSk t) ->
  run_with h O k q = match k with
                     | KR255 => Api.run_request (mk_suite h O K_R255) q
                     | KP256 => Api.run_request (mk_suite h O K_P256) q
                     | KP384 => Api.run_request (mk_suite h O K_P384) q
                     | KP521 => Api.run_request (mk_suite h O K_P521) q
                     | KX25519 => Api.run_request (mk_suite h O K_X25519) q
                     end.
Proof. intros Hq. destruct q; try (exfalso; eapply Hq; reflexivity); reflexivity. Qed.

(* the run-time dispatcher of the correspondence check answers every request (but the per-group random_sk)
   at one of the 20 suites: whatever holds at each of them holds of the suite it reaches *)
Lemma run_reaches_the_20_suites (P : forall E Sc Pk Sk, Suite E Sc Pk Sk -> Prop) o k q :
  all_suites P -> (forall t, q <> Api.QKeRandomSk t) ->
  exists E Sc Pk Sk (CS : Suite E Sc Pk Sk), P _ _ _ _ CS /\ run o k q = Api.run_request CS q.
Proof.
  unfold all_suites. intros HP Hq. decompose [and] HP.
  destruct o; unfold run; rewrite (run_with_request _ _ k q Hq); destruct k; do 5 eexists; (split; [|reflexivity]); assumption.
Qed.

Lemma run_is_one_of_the_suites o k q :
  (forall t, q <> Api.QKeRandomSk t) ->
  exists E Sc Pk Sk (CS : Suite E Sc Pk Sk), run o k q = Api.run_request CS q.
Proof.
  intros Hq. destruct (run_reaches_the_20_suites _ o k q codec_laws_20 Hq) as (E & Sc & Pk & Sk & CS & _ & H).
  now exists E, Sc, Pk, Sk, CS.
Qed.
