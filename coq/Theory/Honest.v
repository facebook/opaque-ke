(* C01: an honest registration followed by a login with the same password,
   credential identifier, identities and context ends with the client accepting,
   the server accepting the client's finalization, both holding the same session
   key, and the client getting back the registration's export key and the
   server's public key.  Generic in the suite, under HashLaws + GroupLaws. *)
From Coq Require Import List Arith.
From OKE Require Import Bytes Suite Generated Hkdf Voprf Messages Envelope Opaque.
From OKE Require Import ResultLemmas Steps Roundtrip Laws Layers.
Import ListNotations.
Local Open Scope res_scope.

Section Honest.
  Context {E Sc Pk Sk : Type}.
  Variable CS : Suite E Sc Pk Sk.
  Hypothesis HL : HashLaws (hash CS).
  Hypothesis GL : GroupLaws CS.

  (* the per-credential OPRF key: a function of seed and credential identifier *)
  Definition oprf_key (seed cred : bytes) : result Sc :=
    let* kb := oprf_key_from_seed CS seed cred in voprf_deser_scalar (oprf CS) kb.

  Lemma server_evaluate_inv seed cred b ev :
    server_evaluate CS seed cred b = Ok ev ->
    exists k, oprf_key seed cred = Ok k /\ ev = o_mul (oprf CS) b k /\ vs CS k.
  Proof.
    unfold server_evaluate, voprf_blind_evaluate. intros H.
    apply bind_Ok in H as (kb & Hkb & H). apply bind_Ok in H as (k & Hk & [= <-]).
    exists k. unfold oprf_key. rewrite Hkb. split; [exact Hk|]. split; [reflexivity|].
    unfold voprf_deser_scalar in Hk.
    destruct (Nat.ltb_spec (length kb) (o_Nok (oprf CS))) as [|Hl]; [discriminate|].
    apply of_option_Ok in Hk. eapply (g_deser_s_valid CS GL); [|exact Hk]. now rewrite firstn_length_le.
  Qed.

  Lemma blind_inv tape pw r b rest :
    voprf_blind (oprf CS) tape pw = Ok (r, b, rest) ->
    vs CS r /\ b = o_mul (oprf CS) (o_h2g (oprf CS) pw (dst_hash_to_group (oprf CS))) r.
  Proof. intros H. apply voprf_blind_Ok in H as [Hr ->]. split; [eapply (g_random_valid CS GL); eauto | reflexivity]. Qed.

  (* randomized password: independent of the blind *)
  Lemma rpwd_unblinded pw r k ksf rp :
    let P := o_h2g (oprf CS) pw (dst_hash_to_group (oprf CS)) in
    ve CS P -> vs CS r -> vs CS k ->
    get_password_derived_key CS pw r (o_mul (oprf CS) (o_mul (oprf CS) P r) k) ksf = Ok rp ->
    forall r', vs CS r' ->
      get_password_derived_key CS pw r' (o_mul (oprf CS) (o_mul (oprf CS) P r') k) ksf = Ok rp.
  Proof.
    intros P HP Hr Hk H r' Hr'. rewrite (rpwd_of_blinded CS GL) in * by assumption. exact H.
  Qed.

  Lemma server_setup_new_inv tape setup rest :
    server_setup_new CS tape = Ok (setup, rest) ->
    vk CS (kp_sk (ss_keypair setup)) /\ kp_pk (ss_keypair setup) = k_pub (ke CS) (kp_sk (ss_keypair setup)).
  Proof. intros H. apply server_setup_new_Ok in H as (t1 & t2 & H & _). now apply (keypair_generate_random_inv CS GL) in H. Qed.

  (* the client's static key is the derivation of Expand(randomized_pwd, nonce || "PrivateKey") *)
  Lemma recover_keys_inv rp nonce kp :
    recover_keys_internal CS rp nonce = Ok kp ->
    exists seed, hkdf_expand (hash CS) rp (nonce ++ STR_PRIVATE_KEY) (k_Nsk (ke CS)) = Some seed /\
                 k_derive (ke CS) (hash CS) (o_id (oprf CS)) seed = Some (kp_sk kp) /\
                 kp_pk kp = k_pub (ke CS) (kp_sk kp) /\ vk CS (kp_sk kp).
  Proof.
    unfold recover_keys_internal, keypair_from_private_key_slice. intros H.
    apply bind_Ok in H as (seed & Hseed%of_option_Ok & H). apply bind_Ok in H as (sk & Hsk%of_option_Ok & H).
    (* the derived key is valid, so re-reading its serialisation gives it back *)
    pose proof (g_derive_valid CS GL _ _ _ _ (hkdf_expand_length HL Hseed) Hsk) as Hv.
    rewrite (sk_deserialize_rt CS sk Hv) in H. injection H as <-. eauto 6.
  Qed.

  Lemma client_login_start_inv tape pw st m rest :
    client_login_start CS tape pw = Ok (st, m, rest) ->
    m = cl_request st /\ vs CS (cl_blind st) /\
    cq_blinded m = o_mul (oprf CS) (o_h2g (oprf CS) pw (dst_hash_to_group (oprf CS))) (cl_blind st) /\
    vk CS (k1s_client_e_sk (cl_ke1_state st)) /\
    k1_client_e_pk (cq_ke1 m) = k_pub (ke CS) (k1s_client_e_sk (cl_ke1_state st)) /\
    length (k1_nonce (cq_ke1 m)) = KE_NONCE_LEN /\ k1s_nonce (cl_ke1_state st) = k1_nonce (cq_ke1 m).
  Proof.
    intros H. apply client_login_start_Ok in H as (Hm & t1 & Hb & Hk).
    apply blind_inv in Hb as [Hr Hb]. apply generate_ke1_layout in Hk as (seed & _ & L & Ln & D & Hp & Hn).
    pose proof (g_derive_valid CS GL _ _ _ _ L D) as Hv. auto 10.
  Qed.

  (* what an honest registration leaves behind: the per-credential OPRF key [k]; the randomized password [rp], a function
     of the password and [k] (so any later blind of the same password recovers it: [rpwd_of_blinded]); the masking key and the sealed
     envelope of the upload *)
  Lemma honest_registration {setup : ServerSetup Pk Sk Sk} {tr pw creg rq t2 cred rr tf ids ksf upload ek spk t3} :
    let P := o_h2g (oprf CS) pw (dst_hash_to_group (oprf CS)) in
    ve CS P ->
    client_registration_start CS tr pw = Ok (creg, rq, t2) ->
    server_registration_start CS setup rq cred = Ok rr ->
    client_registration_finish CS creg tf pw rr ids ksf = Ok (upload, ek, spk, t3) ->
    exists k rp,
      oprf_key (ss_oprf_seed setup) cred = Ok k /\ vs CS k /\
      vs CS (crs_blind creg) /\ rr_eval rr = o_mul (oprf CS) (o_mul (oprf CS) P (crs_blind creg)) k /\
      rpwd CS pw (o_mul (oprf CS) P k) ksf = Ok rp /\
      hkdf_expand (hash CS) rp STR_MASKING_KEY (h_len (hash CS)) = Some (ru_masking_key upload) /\
      envelope_seal CS tf rp spk ids = Ok (ru_envelope upload, ru_client_s_pk upload, ek, t3) /\
      spk = kp_pk (ss_keypair setup).
  Proof.
    intros P HP Hrs Hsr Hrf.
    apply client_registration_start_Ok in Hrs as [Hb _]. apply blind_inv in Hb as [Hr Hb].
    apply server_registration_start_Ok in Hsr as [Hev Hspk].
    apply server_evaluate_inv in Hev as (k & Hk & Hev & Hkv). rewrite Hb in Hev.
    apply client_registration_finish_Ok in Hrf as (-> & rp & Hrp & Hmk & Hseal).
    rewrite Hev, (rpwd_of_blinded CS GL) in Hrp by assumption.
    exists k, rp. repeat (split; [assumption|]). assumption.
  Qed.

  (* credential recovery, whoever holds the record: what the client's final step does next depends on whether the
     envelope was sealed under the answering server's key (it was: C01 below; it was not: C06, Theory/Binding.v) *)
  Lemma login_recovers_record
        {setup : ServerSetup Pk Sk Sk} {file pw k ksf rp tc clog ke1 t4 tv cred ctx ids slog ke2 t5 dbg} :
    let P := o_h2g (oprf CS) pw (dst_hash_to_group (oprf CS)) in
    ve CS P -> oprf_key (ss_oprf_seed setup) cred = Ok k -> rpwd CS pw (o_mul (oprf CS) P k) ksf = Ok rp ->
    vk CS (kp_sk (ss_keypair setup)) -> wf_envelope CS (ru_envelope file) ->
    client_login_start CS tc pw = Ok (clog, ke1, t4) ->
    server_login_start CS (private_key_ops (ke CS)) tv setup (Some file) ke1 cred ctx ids = Ok (slog, ke2, t5, dbg) ->
    get_password_derived_key CS pw (cl_blind clog) (cr_eval ke2) ksf = Ok rp /\
    unmask_response CS (ru_masking_key file) (cr_masking_nonce ke2) (cr_masked ke2)
      = Ok (k_pub (ke CS) (kp_sk (ss_keypair setup)), ru_envelope file).
  Proof.
    intros P HP Hk Hrp Hssv Henvwf Hls Hss.
    apply client_login_start_inv in Hls as (_ & Hr' & Hb' & _).
    apply server_login_start_Ok in Hss as (rec & t0 & t1 & spk & u & s & Hrec & Hspk & _ & _ & Hmask & _ & Hev & _).
    injection Hrec as <- <-. injection Hspk as <-.
    apply server_evaluate_inv in Hev as (k' & Hk' & -> & Hkv). rewrite Hk in Hk'. injection Hk' as <-.
    rewrite Hb'. split; [now rewrite (rpwd_of_blinded CS GL) | exact (unmask_mask CS HL (g_pub_valid CS GL _ Hssv) Henvwf Hmask)].
  Qed.

  (* every party on a tape of its own *)
  Theorem honest_login_agrees_any_tapes
          tape setup t1 tr pw creg rq t2 cred rr tf ids ksf upload ek spk t3 tc clog ke1 t4 tv ctx slog ke2 t5 dbg :
    ve CS (o_h2g (oprf CS) pw (dst_hash_to_group (oprf CS))) ->          (* hash-to-group did not hit the identity *)
    server_setup_new CS tape = Ok (setup, t1) ->
    client_registration_start CS tr pw = Ok (creg, rq, t2) ->
    server_registration_start CS setup rq cred = Ok rr ->
    client_registration_finish CS creg tf pw rr ids ksf = Ok (upload, ek, spk, t3) ->
    client_login_start CS tc pw = Ok (clog, ke1, t4) ->
    server_login_start CS (private_key_ops (ke CS)) tv setup (Some (server_registration_finish upload)) ke1 cred ctx ids
      = Ok (slog, ke2, t5, dbg) ->
    o_eqb (oprf CS) (cq_blinded ke1) (cr_eval ke2) = false ->           (* the evaluation is not the reflected request *)
    exists ke3 sk dbg',
      client_login_finish CS clog pw ke2 ctx ids ksf = Ok (ke3, sk, ek, spk, dbg') /\
      server_login_finish CS slog ke3 = Ok sk /\
      spk = kp_pk (ss_keypair setup) /\ kp_pk (ss_keypair setup) = k_pub (ke CS) (kp_sk (ss_keypair setup)).
  Proof.
    intros HP Hsetup Hrs Hsr Hrf Hls Hss Hnr.
    apply server_setup_new_inv in Hsetup as [Hssv Hspk].
    (* the client recovers what the registration left, and the envelope opens: it was sealed under this server key *)
    destruct (honest_registration HP Hrs Hsr Hrf) as (k & rp & Hk & _ & _ & _ & Hrp0 & Hmk & Hseal & ->).
    destruct (envelope_open_seal CS HL Hseal) as (ckp & u & s & Hopen & Hckp & Hcpk & Hids & Henvwf).
    destruct (login_recovers_record HP Hk Hrp0 Hssv Henvwf Hls Hss) as [Hrp Hun].
    apply recover_keys_inv in Hckp as (seed & _ & _ & Hcpkp & Hcsv).
    (* the server ran 3DH against the public keys of the secrets the client holds, under the same identities *)
    apply client_login_start_inv in Hls as (-> & _ & _ & Hcev & Hcepk & _).
    apply server_login_start_Ok in Hss as (rec & t0 & t1' & spk' & u' & s' & Hrec & Hspk' & _ & _ & _ & Hids' & _ & Hke2).
    injection Hrec as <- <-. injection Hspk' as <-. unfold server_registration_finish in *.
    rewrite <- Hspk, Hids in Hids'. injection Hids' as <- <-.
    rewrite <- Hcpk, Hcpkp in Hke2.
    destruct (ke_agreement_states CS GL Hcev Hcepk Hcsv Hssv Hke2) as (dbg' & Hke3 & Hfin).
    exists {| cf_mac := h_hmac (hash CS) (sl_km3 slog) (sl_hashed_transcript slog) |}, (sl_session_key slog), dbg'.
    split; [|auto].
    (* the client's final step, forwards *)
    unfold client_login_finish. rewrite Hnr, Hrp. cbn [bind]. rewrite Hmk. cbn [of_option bind].
    rewrite Hun. cbn [map_err bind]. rewrite <- Hspk, Hopen. cbn [map_err bind].
    unfold credential_request_serialize in Hke3. rewrite <- Hspk in Hke3. rewrite Hke3. reflexivity.
  Qed.

  (* one tape threaded through all the steps, as the in-memory flow of the correspondence check runs them *)
  Theorem honest_login_agrees
          tape setup t1 pw creg rq t2 cred rr ids ksf upload ek spk t3 clog ke1 t4 ctx slog ke2 t5 dbg :
    ve CS (o_h2g (oprf CS) pw (dst_hash_to_group (oprf CS))) ->          (* hash-to-group did not hit the identity *)
    server_setup_new CS tape = Ok (setup, t1) ->
    client_registration_start CS t1 pw = Ok (creg, rq, t2) ->
    server_registration_start CS setup rq cred = Ok rr ->
    client_registration_finish CS creg t2 pw rr ids ksf = Ok (upload, ek, spk, t3) ->
    client_login_start CS t3 pw = Ok (clog, ke1, t4) ->
    server_login_start CS (private_key_ops (ke CS)) t4 setup (Some (server_registration_finish upload)) ke1 cred ctx ids
      = Ok (slog, ke2, t5, dbg) ->
    o_eqb (oprf CS) (cq_blinded ke1) (cr_eval ke2) = false ->           (* the evaluation is not the reflected request *)
    exists ke3 sk dbg',
      client_login_finish CS clog pw ke2 ctx ids ksf = Ok (ke3, sk, ek, spk, dbg') /\
      server_login_finish CS slog ke3 = Ok sk /\
      spk = kp_pk (ss_keypair setup) /\ kp_pk (ss_keypair setup) = k_pub (ke CS) (kp_sk (ss_keypair setup)).
  Proof. apply honest_login_agrees_any_tapes. Qed.
End Honest.
