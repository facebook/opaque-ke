(* C08 / C17 over histories: every server login attempt - for a registered user or not - draws its random fields
   (fake masking key, masking nonce, ephemeral-key seed, server nonce) from its own range of the shared tape.
   In every world reachable in the adversarial model of Model/World.v (any number of attempts against any identifiers,
   interleaved in any order with real logins, client steps and finish steps, all parties sharing one tape), two server
   sessions j < k were started on tapes t_j, t_k with t_j = fields_j ++ rest_j and t_k a suffix of rest_j: the ranges the
   two attempts drew from are disjoint and consecutive in time, so no random field of one attempt is a function of
   the other's.  By induction over the operation list.
   [sampler_prefix]: the OPRF scalar sampler consumes a prefix of the tape (proved for the 20 suites and the toy suite in
   Theory/SamplerConcrete.v). *)
From Coq Require Import List Lia.
From OKE Require Import Bytes Suite Generated Messages Opaque World.
From OKE Require Import Steps WorldInv.
Import ListNotations.

Definition suffix (a b : bytes) : Prop := exists p, b = p ++ a.
Lemma suffix_refl a : suffix a a. Proof. now exists []. Qed.
Lemma suffix_trans a b c : suffix a b -> suffix b c -> suffix a c.
Proof. intros [p ->] [q ->]. exists (q ++ p). now rewrite app_assoc. Qed.
Lemma suffix_app p a : suffix a (p ++ a). Proof. now exists p. Qed.

Section FR.
  Context {E Sc Pk Sk : Type}.
  Variable CS : Suite E Sc Pk Sk.

  Definition sampler_prefix : Prop :=
    forall t r t', o_random_scalar (oprf CS) t = Some (r, t') -> suffix t' t.
  Hypothesis SP : sampler_prefix.

  Lemma server_start_suffix setup t file rq cred ctx ids st resp rest dbg :
    server_login_start CS (private_key_ops (ke CS)) t setup file rq cred ctx ids = Ok (st, resp, rest, dbg) -> suffix rest t.
  Proof.
    intros H. destruct (server_login_start_layout CS H) as (fmk & eseed & -> & _).
    rewrite !app_assoc. apply suffix_app.
  Qed.

  Lemma client_start_suffix {tape pw st m rest} : client_login_start CS tape pw = Ok (st, m, rest) -> suffix rest tape.
  Proof.
    intros H. apply client_login_start_Ok in H as (_ & t1 & Hb & Hke1). apply voprf_blind_Ok in Hb as [Hr _].
    destruct (generate_ke1_layout CS _ _ _ _ Hke1) as (seed & -> & _).
    eapply suffix_trans; [|exact (SP _ _ _ Hr)]. rewrite app_assoc. apply suffix_app.
  Qed.

  Notation W := (World (E := E) (Sc := Sc) (Pk := Pk) (Sk := Sk)).
  Notation start setup t s :=
    (server_login_start CS (private_key_ops (ke CS)) t setup (sv_file s) (sv_rq s) (sv_cred s) (sv_ctx s) (sv_ids s)).

  (* the sessions, oldest first, each started on a suffix of what the previous one left; [final] is what is left now *)
  Fixpoint chain (setup : ServerSetup Pk Sk Sk) (upper : bytes) (l : list (SrvSession (E := E) (Pk := Pk))) (final : bytes) : Prop :=
    match l with
    | [] => suffix final upper
    | s :: l' => exists t rest dbg, suffix t upper /\ start setup t s = Ok (sv_state s, sv_resp s, rest, dbg) /\ chain setup rest l' final
    end.

  Lemma chain_weaken {setup upper l final final'} : chain setup upper l final -> suffix final' final -> chain setup upper l final'.
  Proof.
    revert upper. induction l as [|s l IH]; intros upper H Hs; cbn [chain] in *.
    - eapply suffix_trans; eauto.
    - destruct H as (t & rest & dbg & H1 & H2 & H3). exists t, rest, dbg. repeat split; auto.
  Qed.

  Lemma chain_snoc {setup upper l final s rest dbg} :
    chain setup upper l final -> start setup final s = Ok (sv_state s, sv_resp s, rest, dbg) -> chain setup upper (l ++ [s]) rest.
  Proof.
    revert upper. induction l as [|s0 l IH]; intros upper H Hs; cbn [chain app] in *.
    - exists final, rest, dbg. repeat split; auto. apply suffix_refl.
    - destruct H as (t & r0 & d0 & H1 & H2 & H3). exists t, r0, d0. repeat split; auto.
  Qed.

  (* every session of a chain started on a suffix of [upper], and every later one on a suffix of what it left *)
  Lemma chain_sessions {setup upper l final j sj} :
    chain setup upper l final -> nth_error l j = Some sj ->
    exists tj restj dbgj, suffix tj upper /\ start setup tj sj = Ok (sv_state sj, sv_resp sj, restj, dbgj) /\
      forall k sk, j < k -> nth_error l k = Some sk ->
        exists tk restk dbgk, suffix tk restj /\ start setup tk sk = Ok (sv_state sk, sv_resp sk, restk, dbgk).
  Proof.
    revert upper j sj. induction l as [|s l IH]; intros upper j sj H Hj; [destruct j; discriminate|].
    destruct H as (t & rest & dbg & Ht & Hs & Hc). destruct j as [|j]; cbn [nth_error] in Hj.
    - injection Hj as <-. exists t, rest, dbg. split; [exact Ht|]. split; [exact Hs|].
      intros [|k] sk Hjk Hk; [lia|]. destruct (IH rest k sk Hc Hk) as (tk & restk & dbgk & H1 & H2 & _).
      exists tk, restk, dbgk. split; assumption.
    - destruct (IH rest j sj Hc Hj) as (tj & restj & dbgj & H1 & H2 & H3). exists tj, restj, dbgj.
      split; [|split; [exact H2|]].
      + eapply suffix_trans; [exact H1|]. eapply suffix_trans; [|exact Ht]. eapply server_start_suffix; eauto.
      + intros [|k] sk Hjk Hk; [lia|]. apply (H3 k sk); [lia | exact Hk].
  Qed.

  Definition Fresh (t0 : bytes) (w : W) : Prop := chain (w_setup w) t0 (w_srv w) (w_tape w).

  Lemma Fresh_step t0 w o : Fresh t0 w -> Fresh t0 (step CS w o).
  Proof.
    unfold Fresh. intros H.
    destruct (step_spec CS w o) as [o | c m rest Hc | s rest dbg Hs | | ].
    2: exact (chain_weaken H (client_start_suffix Hc)).
    2: exact (chain_snoc H Hs).
    all: exact H.
  Qed.

  Lemma Fresh_run t0 w ops : Fresh t0 w -> Fresh t0 (run CS w ops).
  Proof. apply run_invariant. intros w' o _. apply Fresh_step. Qed.

  (* the statement: in every reachable world, two server login attempts drew their random fields from disjoint,
     consecutive ranges of the one tape *)
  Theorem attempts_draw_from_disjoint_ranges setup tape ops j k sj sk :
    let w := run CS (@init E Sc Pk Sk setup tape) ops in
    j < k -> nth_error (w_srv w) j = Some sj -> nth_error (w_srv w) k = Some sk ->
    exists tj fj nj ej mj mid fk nk ek mk restk,
      (* session j was started on tj, session k on tk = fk ++ nk ++ ek ++ mk ++ restk, and *)
      tj = fj ++ nj ++ ej ++ mj ++ mid ++ fk ++ nk ++ ek ++ mk ++ restk /\
      nj = cr_masking_nonce (sv_resp sj) /\ mj = k2_nonce (cr_ke2 (sv_resp sj)) /\
      nk = cr_masking_nonce (sv_resp sk) /\ mk = k2_nonce (cr_ke2 (sv_resp sk)) /\
      length fj = (match sv_file sj with Some _ => 0 | None => h_len (hash CS) end) /\
      length fk = (match sv_file sk with Some _ => 0 | None => h_len (hash CS) end) /\
      length nj = KE_NONCE_LEN /\ length nk = KE_NONCE_LEN /\ length mj = KE_NONCE_LEN /\ length mk = KE_NONCE_LEN /\
      length ej = k_Nsk (ke CS) /\ length ek = k_Nsk (ke CS) /\
      (exists esk, k_derive (ke CS) (hash CS) (o_id (oprf CS)) ej = Some esk /\ k2_server_e_pk (cr_ke2 (sv_resp sj)) = k_pub (ke CS) esk) /\
      (exists esk, k_derive (ke CS) (hash CS) (o_id (oprf CS)) ek = Some esk /\ k2_server_e_pk (cr_ke2 (sv_resp sk)) = k_pub (ke CS) esk) /\
      (* ... all of it inside the one tape the world started with *)
      suffix tj tape.
  Proof.
    intros w Hjk Hj Hk.
    assert (HF : Fresh tape w) by apply Fresh_run, suffix_refl.
    destruct (chain_sessions HF Hj) as (tj & restj & dbgj & Hsuf & Hsj & Hlater).
    destruct (Hlater k sk Hjk Hk) as (tk & restk & dbgk & [mid Hmid] & Hsk).
    destruct (server_login_start_layout CS Hsj) as (fj & ej & Htj & Lfj & Lnj & Lej & Lmj & Hej).
    destruct (server_login_start_layout CS Hsk) as (fk & ek & Htk & Lfk & Lnk & Lek & Lmk & Hek).
    exists tj, fj, (cr_masking_nonce (sv_resp sj)), ej, (k2_nonce (cr_ke2 (sv_resp sj))), mid,
           fk, (cr_masking_nonce (sv_resp sk)), ek, (k2_nonce (cr_ke2 (sv_resp sk))), restk.
    split; [rewrite Htj at 1; rewrite Hmid, Htk; reflexivity|].
    repeat split; auto.
  Qed.
End FR.
