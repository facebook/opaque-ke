(* The OPRF scalar samplers of the 20 suites (and of the toy suite) consume a prefix of the tape:
   the hypothesis [sampler_prefix] of Theory/FreshRanges.v, proved. *)
From Coq Require Import List.
From OKE Require Import Suite Suites.
From OKE Require Import CodecsConcrete BlindLayout FreshRanges Toy.
Import ListNotations.

Lemma sp_ristretto h t r t' : o_random_scalar (oprf_ristretto h) t = Some (r, t') -> suffix t' t.
Proof. intros H. exact (chunk_layout_rest (r_blind_layout H)). Qed.

Lemma sp_weierstrass C h id t r t' : o_random_scalar (oprf_weierstrass C h id) t = Some (r, t') -> suffix t' t.
Proof. intros H. exact (chunk_layout_rest (w_blind_layout C H)). Qed.

Theorem sampler_prefix_20 : all_suites (fun _ _ _ _ CS => sampler_prefix CS).
Proof.
  exact (all_suites_product (fun _ _ _ O => forall t r t', o_random_scalar O t = Some (r, t') -> suffix t' t)
           (fun _ _ _ => True) _ (fun _ _ _ _ _ _ _ H _ => H)
           (sp_ristretto _) (sp_weierstrass _ _ _) (sp_weierstrass _ _ _) (sp_weierstrass _ _ _) I I I I I).
Qed.

Theorem sampler_prefix_toy : sampler_prefix TOY.
Proof.
  intros t r t' H. cbn in H. destruct t as [|x t]; [discriminate|]. injection H as _ <-. now exists [x].
Qed.
