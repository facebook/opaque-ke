(* C09: the code-shaped model computes the functions of RFC 9807 / RFC 9497 as transcribed in Spec/Rfc.v
   (same formulas, with the suite's own lengths, hash and OPRF context string).  Error values are
   forgotten ([to_opt]): the RFC functions are partial, the model names the error. *)
From Coq Require Import String.
From Coq Require Import List Arith Lia NArith.
From OKE Require Import Bytes Suite Generated Hkdf Voprf Messages Envelope TripleDH Opaque.
From OKE Require Import BytesLemmas ResultLemmas Laws Layers Rfc.
Import ListNotations.

Definition to_opt {A} (r : result A) : option A := match r with Ok a => Some a | Err _ => None end.

Section Refines.
  Context {E Sc Pk Sk : Type}.
  Variable CS : Suite E Sc Pk Sk.

  Lemma vec16_lenprefix x : vec16 x = lenprefix 2 x.
  Proof. reflexivity. Qed.
  Lemma vec8_lenprefix x : vec8 x = lenprefix 1 x.
  Proof. reflexivity. Qed.

  (* Extract("", ikm) with the empty salt = Nh zero bytes *)
  Theorem extract_refines ikm : hkdf_extract (hash CS) None ikm = Extract CS [] ikm.
  Proof. reflexivity. Qed.

  (* Expand-Label with the CustomLabel structure *)
  Theorem expand_label_refines secret label context :
    to_opt (hkdf_expand_label CS secret label context) = Expand_Label CS secret label context (h_len (hash CS)).
  Proof.
    unfold hkdf_expand_label, Expand_Label, CustomLabel, I2OSP, vec8, I2OSP, lenprefix.
    destruct (i2osp_nat 2 _), (i2osp_nat 1 (length (_ ++ _))), (i2osp_nat 1 (length context)); try reflexivity.
    cbn [of_option bind]. unfold Expand. now destruct (hkdf_expand _ _ _ _).
  Qed.

  (* the transcript is the RFC's Preamble *)
  Theorem preamble_refines context cid sid u s ke1 resp nonce keyshare :
    lenprefix 2 cid = Some u -> lenprefix 2 sid = Some s ->
    to_opt (preamble context u ke1 s resp nonce keyshare) = Preamble context cid ke1 sid resp nonce keyshare.
  Proof.
    intros Hu Hs. unfold preamble, Preamble.
    change vec16 with (lenprefix 2). rewrite Hu, Hs.
    destruct (lenprefix 2 context); reflexivity.
  Qed.

  (* DeriveKeys(ikm = dh1 || dh2 || dh3, preamble) *)
  Theorem derive_keys_refines (HL : HashLaws (hash CS)) dh1 dh2 dh3 pre :
    to_opt (derive_3dh_keys CS dh1 dh2 dh3 (h_hash (hash CS) pre)) =
    option_map (fun k => (rfc_session_key k, Km2 k, Km3 k, rfc_handshake_secret k)) (DeriveKeys CS (dh1 ++ dh2 ++ dh3) pre).
  Proof.
    (* both sides are the same four Expand-Label calls; the model's second-stage calls also check the
       length of the handshake secret, which the first stage fixed *)
    unfold derive_3dh_keys, DeriveKeys, Derive_Secret, Hash.
    change (bytes_of_string "HandshakeSecret"%string) with STR_HANDSHAKE_SECRET.
    change (bytes_of_string "SessionKey"%string) with STR_SESSION_KEY.
    change (bytes_of_string "ServerMAC"%string) with STR_SERVER_MAC.
    change (bytes_of_string "ClientMAC"%string) with STR_CLIENT_MAC.
    rewrite <- !expand_label_refines, <- extract_refines.
    destruct (hkdf_expand_label CS _ STR_HANDSHAKE_SECRET _) as [hs|] eqn:Hhs; [|reflexivity].
    destruct (hkdf_expand_label CS _ STR_SESSION_KEY _) as [sk|]; [|reflexivity]. cbn [bind to_opt].
    unfold hkdf_expand_label_from_prk.
    rewrite (hkdf_expand_label_length CS HL Hhs), Nat.ltb_irrefl. rewrite <- !expand_label_refines.
    destruct (hkdf_expand_label CS hs STR_SERVER_MAC []) as [k2|]; [|reflexivity].
    destruct (hkdf_expand_label CS hs STR_CLIENT_MAC []) as [k3|]; reflexivity.
  Qed.

  (* the data authenticated by the envelope is the RFC's CleartextCredentials structure *)
  Theorem cleartext_credentials_refines ids cpk spk u s :
    bytestrings_from_identifiers ids cpk spk = Ok (u, s) ->
    CreateCleartextCredentials spk cpk (id_server ids) (id_client ids) = Some (construct_aad u s spk).
  Proof.
    unfold bytestrings_from_identifiers, CreateCleartextCredentials, construct_aad.
    change vec16 with (lenprefix 2). intros H. inv_res. rewrite Hb0, Hb. now subst.
  Qed.

  (* OPRF Finalize: the model writes the element length as the suite constant Noe *)
  Theorem finalize_refines input blind ev :
    length (o_ser_e (oprf CS) (o_mul (oprf CS) ev (o_inv (oprf CS) blind))) = o_Noe (oprf CS) ->
    (N.of_nat (o_Noe (oprf CS)) < 65536)%N ->
    to_opt (voprf_finalize (hash CS) (oprf CS) blind input ev) = Finalize CS input blind ev.
  Proof.
    intros Hl Hn. unfold voprf_finalize, Finalize, vec16, I2OSP. rewrite Hl.
    destruct (i2osp_nat 2 (length input)); [|reflexivity].
    unfold i2osp_nat, i2osp. change (256 ^ N.of_nat 2)%N with 65536%N.
    destruct (N.ltb_spec (N.of_nat (o_Noe (oprf CS))) 65536); [|lia].
    unfold Hash. now rewrite <- !app_assoc.
  Qed.

  (* OPRF DeriveKeyPair, with contextString = "OPRFV1-" || 0x00 || "-" || identifier *)
  Lemma derive_key_loop_refines prefix counter fuel :
    to_opt (derive_key_loop (oprf CS) prefix counter fuel) = DeriveKeyPair_loop CS prefix counter fuel.
  Proof.
    revert counter. induction fuel as [|f IH]; intros counter; cbn [derive_key_loop DeriveKeyPair_loop]; [reflexivity|].
    destruct (o_is_zero (oprf CS) _); [apply IH | reflexivity].
  Qed.

  Theorem derive_key_pair_refines seed info :
    to_opt (voprf_derive_key (oprf CS) seed info) = DeriveKeyPair CS seed info.
  Proof.
    unfold voprf_derive_key, DeriveKeyPair, vec16, I2OSP.
    destruct (i2osp_nat 2 (length info)); [|reflexivity]. apply derive_key_loop_refines.
  Qed.

  (* the server's MAC check *)
  Theorem server_finish_refines st fin :
    to_opt (server_login_finish CS st fin) =
    ServerFinish (h_hmac (hash CS) (sl_km3 st) (sl_hashed_transcript st)) (sl_session_key st) (cf_mac fin).
  Proof.
    unfold server_login_finish, finish_ke, ServerFinish. rewrite bytes_eqb_sym. now destruct (bytes_eqb _ _).
  Qed.

  (* the state kept by the server is (Km3, Hash(preamble || server_mac), session_key): the RFC's
     expected_client_mac is the MAC of the second under the first *)
  Theorem expected_client_mac_refines (k : Keys) pre :
    expected_client_mac CS k pre = h_hmac (hash CS) (Km3 k) (h_hash (hash CS) (pre ++ h_hmac (hash CS) (Km2 k) (h_hash (hash CS) pre))).
  Proof. reflexivity. Qed.

  (* masking of the credential response *)
  Theorem masked_response_refines mk nonce spk env m :
    mask_response CS mk nonce spk env = Ok m -> h_len (hash CS) <= length mk ->
    Rfc.masked_response CS mk nonce (k_ser_pk (ke CS) spk) (envelope_serialize env) =
      Some (xor_bytes (match masking_pad CS mk nonce with Ok p => p | Err _ => [] end) (k_ser_pk (ke CS) spk ++ envelope_serialize env)).
  Proof.
    intros H Hl. unfold Rfc.masked_response, Expand, mask_response, masking_pad, hkdf_from_prk_expand, masked_response_len in *.
    destruct (Nat.ltb_spec (length mk) (h_len (hash CS))); [lia|].
    replace (k_Npk (ke CS) + 32 + h_len (hash CS)) with (KE_NONCE_LEN + h_len (hash CS) + k_Npk (ke CS)) by (change KE_NONCE_LEN with 32; lia).
    destruct (hkdf_expand _ _ _ _); [reflexivity | discriminate].
  Qed.
End Refines.
