(* The algebraic laws the generic theorems are parameterised by.
   [HashLaws] (output lengths) is PROVED for SHA-256/384/512 and HMAC in
   Theory/SuitesLaws.v.  [GroupLaws] (the OPRF group and the key-exchange
   group behave as groups, encodings of valid values round-trip) is proved for
   the toy suite (Toy/Toy.v).  For the 20 concrete suites Theory/GroupSplit.v
   PROVES nine of its fifteen fields (samplers, hash-to-scalar, comparison, seeded
   key derivation, decoder validity via CodecLaws, shared-secret length) and
   collects the other six - facts of elliptic-curve arithmetic - in [CurveLaws],
   the only hypothesis left at a concrete suite (DESIGN.md 6: no elliptic-curve
   formalisation is available here); those six are what the correspondence
   check validates against the four Rust curve implementations. *)
From Coq Require Import List Arith Lia Bool.
From OKE Require Import Bytes Suite Generated.
Import ListNotations.

Record HashLaws (h : HashOps) : Prop := {
  hash_len : forall m, length (h_hash h m) = h_len h;
  hmac_len : forall k m, length (h_hmac h k m) = h_len h;
  h_len_pos : 0 < h_len h;
  h_len_small : h_len h <= 255;
}.

Section G.
  Context {E Sc Pk Sk : Type}.
  Variable CS : Suite E Sc Pk Sk.
  Let O := oprf CS.
  Let K := ke CS.

  (* valid = what the element-level decoder accepts and the encoder reproduces *)
  Definition ve (e : E) : Prop := o_deser_e O (o_ser_e O e) = Some e /\ length (o_ser_e O e) = o_Noe O.
  Definition vs (s : Sc) : Prop := o_deser_s O (o_ser_s O s) = Some s /\ length (o_ser_s O s) = o_Nok O.
  Definition vp (p : Pk) : Prop := k_deser_pk K (k_ser_pk K p) = Some p /\ length (k_ser_pk K p) = k_Npk K.
  Definition vk (s : Sk) : Prop := k_deser_sk K (k_ser_sk K s) = Some s /\ length (k_ser_sk K s) = k_Nsk K.

  Record GroupLaws : Prop := {
    (* OPRF group: prime order, scalars act on it *)
    g_mul_valid : forall P s, ve P -> vs s -> ve (o_mul O P s);
    g_mul_comm : forall P a b, ve P -> vs a -> vs b -> o_mul O (o_mul O P a) b = o_mul O (o_mul O P b) a;
    g_mul_inv : forall P r, ve P -> vs r -> o_mul O (o_mul O P r) (o_inv O r) = P;
    g_random_valid : forall t r t', o_random_scalar O t = Some (r, t') -> vs r;
    g_h2s_valid : forall m d, o_is_zero O (o_h2s O m d) = false -> vs (o_h2s O m d);
    g_eqb_eq : forall a b, o_eqb O a b = true <-> a = b;
    g_identity_invalid : forall P, ve P -> o_eqb O (o_identity O) P = false;
    g_deser_valid : forall b e, o_deser_e O b = Some e -> ve e;
    g_deser_s_valid : forall b s, length b = o_Nok O -> o_deser_s O b = Some s -> vs s;
    (* key-exchange group *)
    (* key derivation from a seed of the private-key length (what HKDF-Expand and the tape deliver) *)
    g_derive_valid : forall h id seed s, length seed = k_Nsk K -> k_derive K h id seed = Some s -> vk s;
    g_pub_valid : forall s, vk s -> vp (k_pub K s);
    g_dh_sym : forall a b, vk a -> vk b -> k_dh K (k_pub K a) b = k_dh K (k_pub K b) a;
    g_dh_len : forall p s, vp p -> vk s -> length (k_dh K p s) = k_Npk K;
    g_deser_pk_valid : forall b p, k_deser_pk K b = Some p -> vp p;
    g_deser_sk_valid : forall b s, length b = k_Nsk K -> k_deser_sk K b = Some s -> vk s;
  }.

  (* the suite's lengths fit HKDF-Expand *)
  Record SizeLaws : Prop := {
    sz_nok : o_Nok O <= 255 * h_len (hash CS);
    sz_nsk : k_Nsk K <= 255 * h_len (hash CS);
    sz_masked : k_Npk K + (ENVELOPE_NONCE_LEN + h_len (hash CS)) <= 255 * h_len (hash CS);
  }.
End G.
