(* One statement for C02, C05 (credential identifier), C14 and C15: what an ACCEPTED login says about the client's
   inputs.  After an honest registration with (pw, cred, ksf), if a client that types pw' and stretches with ksf'
   accepts the response of the honest server evaluating under cred', then pw' = pw, cred' = cred and the two stretching
   functions agree on the OPRF output of this password - or a collision is exhibited (HMAC, hash, HKDF-Expand, client
   key derivation, Diffie-Hellman in the private key, OPRF key derivation).  Contrapositive: another password, another
   credential identifier, or stretching parameters that give another value on the OPRF output never log in
   (Theory/WrongCredential.v states the first two that way).
   A reading of WrongPassword.accepted_login_chain, whose Finalize input also encodes the evaluated element P*k: with
   the same password, equal evaluated elements force equal OPRF keys because the scalar action of a prime-order group
   is free (hypothesis [action_free]: an additional group law, proved for the toy suite in Toy/Toy.v), and equal keys
   for different credential identifiers are a derivation collision (Theory/KeySeparation.v). *)
From Coq Require Import List.
From OKE Require Import Bytes Suite Voprf Messages Opaque.
From OKE Require Import Laws Bad WrongPassword KeySeparation.

Section AL.
  Context {E Sc Pk Sk : Type}.
  Variable CS : Suite E Sc Pk Sk.
  Hypothesis HL : HashLaws (hash CS).
  Hypothesis GL : GroupLaws CS.
  Hypothesis sk_eq_dec : forall a b : Sk, {a = b} + {a <> b}.
  Hypothesis action_free : forall P a b, ve CS P -> vs CS a -> vs CS b -> o_mul (oprf CS) P a = o_mul (oprf CS) P b -> a = b.

  (* the stretching function a finish step applies: the caller's instance, or the suite's default *)
  Definition apply_ksf (k : option ksf_fn) (y : bytes) : option bytes :=
    match k with Some f => f y | None => ksf_default CS y end.

  Theorem accepted_login_used_the_registrations_secrets
          tape setup t1 pw creg rq t2 cred rr ids ksf upload ek spk t3 pw' cred' ksf' clog ke1 t4 ctx slog ke2 t5 dbg out :
    ve CS (o_h2g (oprf CS) pw (dst_hash_to_group (oprf CS))) ->
    ve CS (o_h2g (oprf CS) pw' (dst_hash_to_group (oprf CS))) ->
    server_setup_new CS tape = Ok (setup, t1) ->
    client_registration_start CS t1 pw = Ok (creg, rq, t2) ->
    server_registration_start CS setup rq cred = Ok rr ->
    client_registration_finish CS creg t2 pw rr ids ksf = Ok (upload, ek, spk, t3) ->
    client_login_start CS t3 pw' = Ok (clog, ke1, t4) ->
    server_login_start CS (private_key_ops (ke CS)) t4 setup (Some (server_registration_finish upload)) ke1 cred' ctx ids
      = Ok (slog, ke2, t5, dbg) ->
    client_login_finish CS clog pw' ke2 ctx ids ksf' = Ok out ->
    (pw' = pw /\ cred' = cred /\
     exists y z, apply_ksf ksf y = Some z /\ apply_ksf ksf' y = Some z /\
                 voprf_finalize (hash CS) (oprf CS) (crs_blind creg) pw (rr_eval rr) = Ok y)
    \/ BadS CS \/ BadOprfDerive CS.
  Proof.
    intros HP HP' _ Hrs Hsr Hrf Hls Hss Hacc.
    destruct (accepted_login_chain CS HL GL sk_eq_dec HP HP' Hrs Hsr Hrf Hls Hss Hacc)
      as [(k & k' & y & z & Hk & Hkv & Hk' & Hkv' & Hpw & Hel & Hy & Hz & Hz')|HB];
      [|now right; left].
    (* same evaluated element: same OPRF key (the scalar action is free); same key: same credential identifier, or a
       collision in the per-credential key derivation *)
    pose proof (action_free _ _ _ HP Hkv Hkv' Hel) as <-.
    destruct (list_eq_dec Byte.byte_eq_dec cred cred') as [<-|Hc].
    - left. unfold apply_ksf. eauto 8.
    - right. exact (credential_identifiers_separate_keys CS GL _ _ _ _ Hk Hk' Hc).
  Qed.
End AL.
