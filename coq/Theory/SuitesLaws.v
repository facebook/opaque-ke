(* HashLaws, CodecLaws and SizeLaws, PROVED for each of the 20 concrete suites.  Of GroupLaws, the encoding
   half is proved in Theory/GroupSplit.v; what remains assumed for them is CurveLaws (DESIGN.md 6). *)
From Coq Require Import List Arith Lia Bool.
From OKE Require Import Suite Generated BytesLemmas Laws Codecs CodecsConcrete Sha2 Suites.
Import ListNotations.

Lemma sha2_length wb wbytes a1 a2 a3 a4 a5 a6 b1 b2 b3 b4 b5 b6 K IV out m :
  out <= 8 * wbytes ->
  length (sha2 wb wbytes a1 a2 a3 a4 a5 a6 b1 b2 b3 b4 b5 b6 K IV out m) = out.
Proof.
  intros Hle. unfold sha2.
  destruct (blocks _ _ _ _ _ _ _ _ _ _ _ _ _ _ _ _ _ _) as [[[[[[[a b] c] d] e] f] g] h].
  rewrite firstn_length. cbn [flat_map]. rewrite !app_length, !be_bytes_length. cbn [length]. lia.
Qed.

Lemma sha256_length m : length (sha256 m) = 32.
Proof. unfold sha256. apply sha2_length. lia. Qed.
Lemma sha512_length m : length (sha512 m) = 64.
Proof. unfold sha512, sha512_gen. apply sha2_length. lia. Qed.
Lemma sha384_length m : length (sha384 m) = 48.
Proof. unfold sha384, sha512_gen. apply sha2_length. lia. Qed.

Lemma mk_hash_laws H len block :
  (forall m, length (H m) = len) -> 0 < len -> len <= 255 -> HashLaws (mk_hash H len block).
Proof.
  intros HL Hp Hs. constructor; cbn [mk_hash h_hash h_hmac h_len]; auto.
  intros k m. unfold hmac_gen. apply HL.
Qed.

Theorem SHA256_laws : HashLaws SHA256.
Proof. apply mk_hash_laws; [exact sha256_length | lia | lia]. Qed.
Theorem SHA384_laws : HashLaws SHA384.
Proof. apply mk_hash_laws; [exact sha384_length | lia | lia]. Qed.
Theorem SHA512_laws : HashLaws SHA512.
Proof. apply mk_hash_laws; [exact sha512_length | lia | lia]. Qed.

Definition proved_laws {E Sc Pk Sk} (CS : Suite E Sc Pk Sk) : Prop :=
  HashLaws (hash CS) /\ CodecLaws CS /\ SizeLaws CS.

(* every hash has at least 32 bytes of output and no group length exceeds 67 bytes (P-521 public keys) *)
Definition oprf_sizes (h : HashOps) {E Sc} (O : OprfOps E Sc) : bool := (32 <=? h_len h) && (o_Nok O <=? 67).
Definition ke_sizes {Pk Sk} (K : KeOps Pk Sk) : bool := (k_Nsk K <=? 67) && (k_Npk K <=? 67).

Lemma mk_suite_sizes {E Sc Pk Sk} h (O : OprfOps E Sc) (K : KeOps Pk Sk) :
  oprf_sizes h O = true -> ke_sizes K = true -> SizeLaws (mk_suite h O K).
Proof.
  intros [Hh Ho]%andb_true_iff [Hs Hp]%andb_true_iff. apply Nat.leb_le in Hh, Ho, Hs, Hp.
  constructor; cbn [mk_suite hash oprf ke]; unfold ENVELOPE_NONCE_LEN; lia.
Qed.

Theorem proved_laws_20 : all_suites (fun _ _ _ _ CS => proved_laws CS).
Proof.
  apply (all_suites_map2 (fun _ _ _ _ CS => CodecLaws CS) (fun _ _ _ _ CS => HashLaws (hash CS) /\ SizeLaws CS)).
  - intros E Sc Pk Sk CS HC [HH HS]. exact (conj HH (conj HC HS)).
  - exact codec_laws_20.
  - exact (all_suites_product (fun _ _ h O => HashLaws h /\ oprf_sizes h O = true) (fun _ _ K => ke_sizes K = true) _
             (fun _ _ _ _ h O K HO HK => conj (proj1 HO) (mk_suite_sizes h O K (proj2 HO) HK))
             (conj SHA512_laws eq_refl) (conj SHA256_laws eq_refl) (conj SHA384_laws eq_refl) (conj SHA512_laws eq_refl)
             eq_refl eq_refl eq_refl eq_refl eq_refl).
Qed.
