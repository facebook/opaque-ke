(* C08: a credential response produced without a password file has exactly the length of a real one (one code
   path after the dummy record is substituted; the fields are cut at the suite's fixed offsets). *)
From Coq Require Import List Lia.
From OKE Require Import Bytes Suite Generated Messages Opaque.
From OKE Require Import BytesLemmas Steps Codecs Laws Layers Honest.

Section Shape.
  Context {E Sc Pk Sk : Type}.
  Variable CS : Suite E Sc Pk Sk.
  Hypothesis HL : HashLaws (hash CS).
  Hypothesis GL : GroupLaws CS.

  (* weaker than Roundtrip.wf_envelope, which [envelope_dummy] (env_internal := false) does not satisfy *)
  Definition envelope_has_length (e : Envelope) : Prop :=
    length (env_nonce e) = ENVELOPE_NONCE_LEN /\ length (env_hmac e) = h_len (hash CS).

  Lemma dummy_envelope_has_length : envelope_has_length (envelope_dummy CS).
  Proof. unfold envelope_has_length, envelope_dummy, zeros. cbn. now rewrite !repeat_length. Qed.

  Theorem response_length tape (setup : ServerSetup Pk Sk Sk) file rq cred ctx ids st resp rest dbg :
    server_login_start CS (private_key_ops (ke CS)) tape setup file rq cred ctx ids = Ok (st, resp, rest, dbg) ->
    ve CS (cq_blinded rq) -> vk CS (kp_sk (ss_keypair setup)) ->
    (forall f, file = Some f -> envelope_has_length (ru_envelope f)) ->
    length (credential_response_serialize CS resp) = credential_response_len CS.
  Proof.
    intros H Hb Hss Hfile.
    apply server_login_start_Ok in H as (rec & t0 & t1 & spk & u & s & Hrec & Hspk & _ & Lmn & Hmask & _ & Hev & Hke2).
    injection Hspk as <-.
    (* evaluation element *)
    apply (server_evaluate_inv CS GL) in Hev as (k & _ & Hev & Hkv).
    pose proof (g_mul_valid CS GL _ _ Hb Hkv) as [_ Lev]. rewrite <- Hev in Lev.
    (* masked response: the pad has its length, the record's envelope too *)
    apply mask_response_Ok in Hmask as (pad & Hpad & Hmasked).
    pose proof (masking_pad_length CS HL Hpad) as Lpad.
    assert (Lenv : envelope_has_length (ru_envelope rec)).
    { destruct file as [f|].
      - injection Hrec as <- _. now apply Hfile.
      - apply registration_upload_dummy_Ok in Hrec as (_ & _ & _ & ->). apply dummy_envelope_has_length. }
    destruct Lenv as [Ln Lh].
    pose proof (g_pub_valid CS GL _ Hss) as [_ Lspk].
    pose proof nonce_lens_eq as Hne.
    assert (Lm : length (masked_response_serialize (cr_masked resp)) = masked_response_len CS).
    { rewrite Hmasked, masked_response_roundtrip; rewrite xor_bytes_length, app_length;
        unfold envelope_serialize, masked_response_len in *; rewrite ?app_length; lia. }
    (* key-exchange part *)
    apply generate_ke2_Ok in Hke2 as (esk & t2 & pre & dh2 & hs & Hkp & Hn & _ & _ & _ & Hmac & _).
    apply generate_nonce_Ok in Hn as [_ Lsn].
    apply (keypair_generate_random_inv CS GL) in Hkp as [Hev' Hepk]. cbn [kp_pk kp_sk] in *.
    pose proof (g_pub_valid CS GL _ Hev') as [_ Lepk]. rewrite <- Hepk in Lepk.
    unfold credential_response_serialize, credential_response_len, ke2_message_serialize, ke2_message_len.
    rewrite !app_length, Lm, Lev, Lmn, Lsn, Lepk, Hmac, (hmac_len _ HL). lia.
  Qed.
End Shape.
