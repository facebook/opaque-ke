(* What the definitions of Concrete/Field.v compute: the fuelled exponentiation, and the conversions between
   integers and byte strings, which invert each other in both byte orders. *)
From Coq Require Import ZArith Zpow_facts Lia Bool.
From OKE Require Import BytesLemmas Field.
Local Open Scope Z_scope.

Lemma fpow_fuel_spec p : 0 < p -> forall f b e acc, 0 <= e < 2 ^ Z.of_nat f -> acc mod p = acc ->
  fpow_fuel f p b e acc = (acc * b ^ e) mod p.
Proof.
  (* square-and-multiply keeps acc * b^e fixed: b^e = (b*b)^(e/2) * b^(e mod 2) *)
  intros Hp. induction f as [|f IH]; intros b e acc He Hacc; cbn [fpow_fuel].
  - replace e with 0 by (cbn in He; lia). now rewrite Z.pow_0_r, Z.mul_1_r.
  - destruct (Z.eqb_spec e 0) as [->|Hne]; [now rewrite Z.pow_0_r, Z.mul_1_r|].
    rewrite Nat2Z.inj_succ, Z.pow_succ_r in He by lia.
    assert (Hh : 0 <= e / 2 < 2 ^ Z.of_nat f) by (split; [apply Z.div_pos | apply Z.div_lt_upper_bound]; lia).
    pose proof (Z.mod_pos_bound e 2 eq_refl) as Hm.
    rewrite IH; [| exact Hh | destruct (e mod 2 =? 1); [apply Z.mod_mod; lia | exact Hacc]].
    rewrite <- Z.mul_mod_idemp_r, <- Zpower_mod, Z.mul_mod_idemp_r by lia.
    replace (b ^ e) with ((b * b) ^ (e / 2) * b ^ (e mod 2))
      by (rewrite <- Z.pow_2_r, <- Z.pow_mul_r, <- Z.pow_add_r, <- Z.div_mod; lia).
    destruct (Z.eqb_spec (e mod 2) 1) as [->|].
    + rewrite Z.mul_mod_idemp_l by lia. f_equal. ring.
    + replace (e mod 2) with 0 by lia. f_equal. ring.
Qed.

(* 640 is the fuel that fpow gives fpow_fuel *)
Lemma fpow_spec p b e : 1 < p -> 0 <= e < 2 ^ 640 -> fpow p b e = b ^ e mod p.
Proof.
  intros Hp He. unfold fpow.
  rewrite fpow_fuel_spec; [| lia | exact He | apply Z.mod_1_l, Hp].
  now rewrite Z.mul_1_l, <- Zpower_mod by lia.
Qed.

Lemma fpow_fpow p g a b : 1 < p -> 0 <= a < 2 ^ 640 -> 0 <= b < 2 ^ 640 -> fpow p (fpow p g a) b = g ^ (a * b) mod p.
Proof.
  intros Hp Ha Hb. rewrite !fpow_spec by assumption. rewrite <- Zpower_mod by lia. now rewrite Z.pow_mul_r by lia.
Qed.

Lemma Z_to_bytes_be_length n z : length (Z_to_bytes_be n z) = n.
Proof. apply be_bytes_length. Qed.
Lemma Z_to_bytes_le_length n z : length (Z_to_bytes_le n z) = n.
Proof. apply le_bytes_length. Qed.

Lemma Z_in_range_spec a x b : BoolSpec (a < x < b) (~ a < x < b) ((a <? x) && (x <? b)).
Proof. destruct (Z.ltb_spec a x), (Z.ltb_spec x b); constructor; lia. Qed.

Lemma Z_of_N_mod_small n k : 0 <= k < 256 ^ Z.of_nat n -> Z.of_N (Z.to_N k mod 256 ^ N.of_nat n) = k.
Proof.
  intros [H0 H1]. rewrite N.mod_small.
  - now apply Z2N.id.
  - apply N2Z.inj_lt. rewrite Z2N.id by assumption. rewrite N2Z.inj_pow. now rewrite nat_N_Z.
Qed.

Lemma bytes_to_Z_be_roundtrip n k : 0 <= k < 256 ^ Z.of_nat n -> bytes_to_Z_be (Z_to_bytes_be n k) = k.
Proof. unfold bytes_to_Z_be, Z_to_bytes_be. rewrite os2ip_be_bytes. apply Z_of_N_mod_small. Qed.
Lemma bytes_to_Z_le_roundtrip n k : 0 <= k < 256 ^ Z.of_nat n -> bytes_to_Z_le (Z_to_bytes_le n k) = k.
Proof. unfold bytes_to_Z_le, Z_to_bytes_le. rewrite os2ip_le_bytes. apply Z_of_N_mod_small. Qed.

Lemma be_roundtrip n b : length b = n -> Z_to_bytes_be n (bytes_to_Z_be b) = b.
Proof. intros <-. unfold Z_to_bytes_be, bytes_to_Z_be. rewrite N2Z.id. apply be_bytes_os2ip. Qed.
Lemma le_roundtrip n b : length b = n -> Z_to_bytes_le n (bytes_to_Z_le b) = b.
Proof. intros <-. unfold Z_to_bytes_le, bytes_to_Z_le. rewrite N2Z.id. apply le_bytes_os2ip. Qed.
