(* C06 (and the envelope part of C05): the envelope tag binds the server's static
   public key and the sealed identities.  Opening an envelope under another
   server public key, or under other identities, is not accepted unless an HMAC
   collision (same key, different messages) is exhibited ([envelope_binds]); where
   the key schedule and the identities go through as at sealing, the refusal is
   SealOpenHmacError ([envelope_open_spec], used so in [substituted_key_rejected]). *)
From Coq Require Import List.
From OKE Require Import Bytes Suite Voprf Messages Envelope Opaque.
From OKE Require Import Steps Laws Layers Transcript Bad KeySchedule Honest.

Section Binding.
  Context {E Sc Pk Sk : Type}.
  Variable CS : Suite E Sc Pk Sk.

  (* what [envelope_open] does, when the key schedule succeeds *)
  Lemma envelope_open_spec env rp spk ids kp u s ak ek :
    env_internal env = true ->
    recover_keys_internal CS rp (env_nonce env) = Ok kp ->
    bytestrings_from_identifiers ids (k_ser_pk (ke CS) (kp_pk kp)) (k_ser_pk (ke CS) spk) = Ok (u, s) ->
    envelope_keys CS rp (env_nonce env) = Ok (ak, ek) ->
    envelope_open CS env rp spk ids =
      if bytes_eqb (h_hmac (hash CS) ak (env_nonce env ++ construct_aad u s (k_ser_pk (ke CS) spk))) (env_hmac env)
      then Ok (kp, ek, u, s) else Err (ELibrary LSealOpenHmacError).
  Proof.
    intros Hi Hkp Hids Hk. unfold envelope_open. rewrite Hi. cbn [negb].
    rewrite Hkp. cbn [bind]. rewrite Hids. cbn [bind]. rewrite Hk. reflexivity.
  Qed.

  (* sealed under (spk, ids), opened under (spk', ids'): accepted only if the authenticated
     data coincide, or an HMAC collision under the same key is exhibited *)
  Theorem envelope_binds {tape rp spk ids env cpk ek rest spk' ids' r} :
    envelope_seal CS tape rp spk ids = Ok (env, cpk, ek, rest) ->
    envelope_open CS env rp spk' ids' = Ok r ->
    length (k_ser_pk (ke CS) spk) = length (k_ser_pk (ke CS) spk') ->
    (k_ser_pk (ke CS) spk' = k_ser_pk (ke CS) spk /\
     effective (id_client ids') (k_ser_pk (ke CS) cpk) = effective (id_client ids) (k_ser_pk (ke CS) cpk) /\
     effective (id_server ids') (k_ser_pk (ke CS) spk') = effective (id_server ids) (k_ser_pk (ke CS) spk))
    \/ Bad (hash CS).
  Proof.
    intros Hs Ho Hlen. destruct r as [[[kp' ek'] u'] s'].
    apply envelope_seal_Ok in Hs as (kp & u & s & ak & _ & _ & _ & Hkp & -> & Hus & Hk & Ht).
    apply envelope_open_Ok in Ho as (ak' & _ & Hkp' & Hus' & Hk' & Ht').
    rewrite Hkp in Hkp'. injection Hkp' as <-. rewrite Hk in Hk'. injection Hk' as <- <-.
    (* one tag under one key: the authenticated data coincide, or HMAC collides *)
    rewrite Ht in Ht'. destruct (mac_inj eq_refl Ht') as [[_ Hm]|HB]; [left | now right].
    apply bytestrings_Ok in Hus as [Hu Hsv]. apply bytestrings_Ok in Hus' as [Hu' Hsv'].
    destruct (aad_injective _ _ _ _ _ _ _ _ _ _ _ _ Hu' Hsv' Hu Hsv eq_refl (eq_sym Hlen) Hm) as (_ & H1 & H2 & H3).
    auto.
  Qed.
End Binding.

(* A password file served under another static key pair - even by a party that
   holds the genuine OPRF seed and the stolen file - makes the client's final login
   step fail with InvalidLogin, unless an HMAC collision is exhibited. *)
Section Substituted.
  Context {E Sc Pk Sk : Type}.
  Variable CS : Suite E Sc Pk Sk.
  Hypothesis HL : HashLaws (hash CS).
  Hypothesis GL : GroupLaws CS.

  Theorem substituted_key_rejected
        tape setup t1 pw creg rq t2 cred rr ids ksf upload ek spk t3 clog ke1 t4 ctx slog ke2 t5 dbg setup' :
    ve CS (o_h2g (oprf CS) pw (dst_hash_to_group (oprf CS))) ->
    server_setup_new CS tape = Ok (setup, t1) ->
    client_registration_start CS t1 pw = Ok (creg, rq, t2) ->
    server_registration_start CS setup rq cred = Ok rr ->
    client_registration_finish CS creg t2 pw rr ids ksf = Ok (upload, ek, spk, t3) ->
    client_login_start CS t3 pw = Ok (clog, ke1, t4) ->
    (* the impostor: same OPRF seed, the stolen file, another static key pair *)
    ss_oprf_seed setup' = ss_oprf_seed setup ->
    vk CS (kp_sk (ss_keypair setup')) ->
    k_ser_pk (ke CS) (k_pub (ke CS) (kp_sk (ss_keypair setup'))) <> k_ser_pk (ke CS) (kp_pk (ss_keypair setup)) ->
    server_login_start CS (private_key_ops (ke CS)) t4 setup' (Some (server_registration_finish upload)) ke1 cred ctx ids
      = Ok (slog, ke2, t5, dbg) ->
    o_eqb (oprf CS) (cq_blinded ke1) (cr_eval ke2) = false ->
    client_login_finish CS clog pw ke2 ctx ids ksf = Err EInvalidLogin \/ Bad (hash CS).
  Proof.
    intros HP Hsetup Hrs Hsr Hrf Hls Hseed Hssv' Hne Hss Hnr.
    apply (server_setup_new_inv CS GL) in Hsetup as [Hssv Hspk].
    (* the client recovers the registration's randomized password and unmasks the impostor's key and the registration's envelope *)
    destruct (honest_registration CS GL HP Hrs Hsr Hrf) as (k & rp & Hk & _ & _ & _ & Hrp0 & Hmk & Hseal & ->).
    destruct (envelope_open_seal CS HL Hseal) as (_ & _ & _ & _ & _ & _ & _ & Henvwf). rewrite <- Hseed in Hk.
    destruct (login_recovers_record CS HL GL HP Hk Hrp0 Hssv' Henvwf Hls Hss) as [Hrp Hun].
    apply client_login_start_Ok in Hls as [-> _].
    unfold client_login_finish. rewrite Hnr, Hrp. cbn [bind]. rewrite Hmk. cbn [of_option bind]. rewrite Hun. cbn [map_err bind].
    assert (Hlen : length (k_ser_pk (ke CS) (kp_pk (ss_keypair setup))) = length (k_ser_pk (ke CS) (k_pub (ke CS) (kp_sk (ss_keypair setup'))))).
    { rewrite Hspk. destruct (g_pub_valid CS GL _ Hssv) as [_ ->]. now destruct (g_pub_valid CS GL _ Hssv') as [_ ->]. }
    (* it opens the envelope under the impostor's key *)
    destruct (envelope_open CS (ru_envelope upload) rp _ ids) as [r|e] eqn:Ho.
    - (* accepted under another key: the authenticated data coincide (excluded) or a collision *)
      right. destruct (envelope_binds CS Hseal Ho Hlen) as [(Heq & _)|HB]; [exfalso; exact (Hne Heq) | exact HB].
    - (* rejected: the key schedule and the identities succeed as at registration, so it is the tag *)
      left. apply envelope_seal_Ok in Hseal as (kp & u & s & ak & _ & _ & Hi & Hkp & Hcpk & Hus & Hkeys & _).
      rewrite Hcpk in Hus. destruct (bytestrings_Ok_length Hlen Hus) as ([u2 s2] & Hus').
      rewrite (envelope_open_spec CS _ _ _ _ _ _ _ _ _ Hi Hkp Hus' Hkeys) in Ho.
      destruct (bytes_eqb _ _); [discriminate|]. now injection Ho as <-.
  Qed.
End Substituted.
