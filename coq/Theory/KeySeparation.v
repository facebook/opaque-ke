(* C14 (keyed per credential): the per-credential OPRF key is DeriveKeyPair(Expand(seed, id || "OprfKey")).
   Two different credential identifiers under one seed get the same key only if HKDF-Expand collides on the two
   infos, or the OPRF key derivation collides on two different seeds - each exhibited with its witness. *)
From Coq Require Import List Arith.
From OKE Require Import Bytes Suite Generated Hkdf Voprf Opaque.
From OKE Require Import ResultLemmas Roundtrip Laws Bad Honest KeySchedule.

Section KSep.
  Context {E Sc Pk Sk : Type}.
  Variable CS : Suite E Sc Pk Sk.
  Hypothesis GL : GroupLaws CS.

  (* a collision of the OPRF's DeriveKeyPair on two different seeds *)
  Inductive BadOprfDerive : Prop :=
  | BOD (ikm ikm' info : bytes) (k : Sc) :
      ikm <> ikm' -> voprf_derive_key (oprf CS) ikm info = Ok k -> voprf_derive_key (oprf CS) ikm' info = Ok k -> BadOprfDerive.

  (* the derived key is non-zero, so it encodes and decodes to itself *)
  Lemma derive_key_loop_valid prefix counter fuel k :
    derive_key_loop (oprf CS) prefix counter fuel = Ok k -> vs CS k.
  Proof.
    revert counter. induction fuel as [|f IH]; intros counter; cbn [derive_key_loop]; [discriminate|].
    destruct (o_is_zero (oprf CS) _) eqn:Hz; [apply IH|]. intros [= <-]. now apply (g_h2s_valid CS GL).
  Qed.

  (* so the key the server decodes from its serialisation is the derived key itself *)
  Lemma oprf_key_inv seed cred k :
    oprf_key CS seed cred = Ok k ->
    exists ikm,
      hkdf_expand (hash CS) seed (cred ++ STR_OPRF_KEY) (o_Nok (oprf CS)) = Some ikm /\
      voprf_derive_key (oprf CS) ikm STR_OPAQUE_DERIVE_KEY_PAIR = Ok k.
  Proof.
    unfold oprf_key, oprf_key_from_seed, hkdf_from_prk_expand. intros H.
    apply bind_Ok in H as (kb & Hkb & H).
    apply bind_Ok in Hkb as (ikm & Hikm & Hkb). apply bind_Ok in Hkb as (k0 & Hk0 & Hkb). injection Hkb as <-.
    apply of_option_Ok in Hikm. destruct (length seed <? h_len (hash CS)); [discriminate|].
    pose proof Hk0 as Hv. unfold voprf_derive_key in Hv. destruct (i2osp_nat 2 _); [|discriminate].
    apply derive_key_loop_valid in Hv. rewrite (voprf_deser_scalar_rt CS k0 Hv) in H. injection H as <-. eauto.
  Qed.

  Theorem credential_identifiers_separate_keys seed cred cred' k :
    oprf_key CS seed cred = Ok k -> oprf_key CS seed cred' = Ok k -> cred <> cred' ->
    BadS CS \/ BadOprfDerive.
  Proof.
    intros H H' Hne.
    apply oprf_key_inv in H as (ikm & Hikm & Hk). apply oprf_key_inv in H' as (ikm' & Hikm' & Hk').
    destruct (list_eq_dec Byte.byte_eq_dec ikm ikm') as [<-|Hi].
    - left. destruct (expand_inj CS Hikm Hikm') as [[_ Hc%app_inv_tail]|HB]; [contradiction | exact HB].
    - right. exact (BOD _ _ _ _ Hi Hk Hk').
  Qed.
End KSep.
