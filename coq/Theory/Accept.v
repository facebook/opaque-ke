(* Acceptance characterisations and purely functional facts that need no
   algebraic law: C03 (server finish), C15 (key stretching), C14/C08 (the
   server's evaluation is a function of seed, identifier and request only). *)
From Coq Require Import List Arith.
From OKE Require Import Bytes Suite Hkdf Voprf Messages TripleDH Opaque Api.
From OKE Require Import BytesLemmas Steps.
Import ListNotations.

Section Accept.
  Context {E Sc Pk Sk : Type}.
  Variable CS : Suite E Sc Pk Sk.
  Let h := hash CS.

  (* C03: exactly one byte string completes a pending server login: the HMAC of the
     stored transcript hash under the stored key; the key released is the stored one *)
  Theorem server_finish_accept_iff st m k :
    server_login_finish CS st m = Ok k <->
    cf_mac m = h_hmac h (sl_km3 st) (sl_hashed_transcript st) /\ k = sl_session_key st.
  Proof.
    unfold server_login_finish, finish_ke. fold h.
    destruct (bytes_eqb (h_hmac h (sl_km3 st) (sl_hashed_transcript st)) (cf_mac m)) eqn:Heq.
    - apply bytes_eqb_eq in Heq. split.
      + intros [= <-]. auto.
      + intros [_ ->]. reflexivity.
    - apply bytes_eqb_neq in Heq. split; [discriminate|]. intros [Hm _]. congruence.
  Qed.

  Theorem server_finish_reject st m :
    cf_mac m <> h_hmac h (sl_km3 st) (sl_hashed_transcript st) ->
    server_login_finish CS st m = Err EInvalidLogin.
  Proof.
    intros Hne. unfold server_login_finish, finish_ke. fold h.
    destruct (bytes_eqb _ _) eqn:Heq; [|reflexivity].
    apply bytes_eqb_eq in Heq. congruence.
  Qed.

  (* at the byte level (the API a caller sees): among the strings of the finalization
     length, only the expected MAC is accepted, everything else is InvalidLogin *)
  Theorem api_server_finish_bytes st_bytes st f :
    server_login_deserialize CS st_bytes = Ok st ->
    length f = h_len h ->
    run_request CS (QSrvLoginFinish st_bytes f) =
      if bytes_eqb (h_hmac h (sl_km3 st) (sl_hashed_transcript st)) f
      then ROk [TB (sl_session_key st)] else RErr EInvalidLogin.
  Proof.
    intros Hst Hl. cbn [run_request]. rewrite Hst.
    unfold credential_finalization_deserialize, check_slice_size.
    rewrite Hl, Nat.eqb_refl. cbn [bind arg fin].
    unfold server_login_finish, finish_ke. cbn [cf_mac].
    destruct (bytes_eqb _ f); reflexivity.
  Qed.

  (* generate_ke3 sends HMAC(km3, Hash(pre ++ mac)), finish_ke compares with HMAC(sl_km3, sl_hashed_transcript): on a
     state built from the same km3, pre and mac these are the same term.  (That the two sides do arrive at such
     states is Layers.ke_agreement_states.) *)
  Lemma ke3_mac_is_expected km3 pre mac :
    cf_mac {| cf_mac := h_hmac h km3 (h_hash h (pre ++ mac)) |} =
    h_hmac h (sl_km3 {| sl_km3 := km3; sl_hashed_transcript := h_hash h (pre ++ mac); sl_session_key := [] |})
             (sl_hashed_transcript {| sl_km3 := km3; sl_hashed_transcript := h_hash h (pre ++ mac); sl_session_key := [] |}).
  Proof. reflexivity. Qed.

  (* C15: the finish steps use the stretching function only through its value at the OPRF output *)
  Theorem ksf_only_at_oprf_output input blind ev (f g : ksf_fn) y :
    voprf_finalize h (oprf CS) blind input ev = Ok y -> f y = g y ->
    get_password_derived_key CS input blind ev (Some f) = get_password_derived_key CS input blind ev (Some g).
  Proof. intros Hy Hfg. unfold get_password_derived_key. fold h. rewrite Hy. cbn [bind]. now rewrite Hfg. Qed.

  Theorem ksf_default_explicit input blind ev :
    get_password_derived_key CS input blind ev None =
    get_password_derived_key CS input blind ev (Some (ksf_default CS)).
  Proof. reflexivity. Qed.

  Theorem ksf_error input blind ev (f : ksf_fn) y :
    voprf_finalize h (oprf CS) blind input ev = Ok y -> f y = None ->
    get_password_derived_key CS input blind ev (Some f) = Err (ELibrary LKsfError).
  Proof. intros Hy Hf. unfold get_password_derived_key. fold h. rewrite Hy. cbn [bind]. now rewrite Hf. Qed.

  (* the stretched value enters the randomized password: Extract(0, y || f y) *)
  Theorem ksf_bound input blind ev (f : ksf_fn) y z :
    voprf_finalize h (oprf CS) blind input ev = Ok y -> f y = Some z ->
    get_password_derived_key CS input blind ev (Some f) = Ok (hkdf_extract h None (y ++ z)).
  Proof. intros Hy Hf. unfold get_password_derived_key. fold h. rewrite Hy. cbn [bind]. now rewrite Hf. Qed.

  Theorem registration_finish_ksf_congr st tape pw r ids (f g : ksf_fn) y :
    voprf_finalize h (oprf CS) (crs_blind st) pw (rr_eval r) = Ok y -> f y = g y ->
    client_registration_finish CS st tape pw r ids (Some f) = client_registration_finish CS st tape pw r ids (Some g).
  Proof.
    intros Hy Hfg. unfold client_registration_finish.
    now rewrite (ksf_only_at_oprf_output pw (crs_blind st) (rr_eval r) f g y Hy Hfg).
  Qed.

  Theorem login_finish_ksf_congr st pw r ctx ids (f g : ksf_fn) y :
    voprf_finalize h (oprf CS) (cl_blind st) pw (cr_eval r) = Ok y -> f y = g y ->
    client_login_finish CS st pw r ctx ids (Some f) = client_login_finish CS st pw r ctx ids (Some g).
  Proof.
    intros Hy Hfg. unfold client_login_finish.
    now rewrite (ksf_only_at_oprf_output pw (cl_blind st) (cr_eval r) f g y Hy Hfg).
  Qed.

  (* C14 / C08: the server's OPRF evaluation: a function of (seed, credential identifier, blinded element); at registration this
     is Steps.server_registration_start_Ok *)
  Theorem login_start_evaluation {S} (SK : SkOps Pk S) tape (setup : ServerSetup Pk Sk S) file rq cred ctx ids st resp rest dbg :
    server_login_start CS SK tape setup file rq cred ctx ids = Ok (st, resp, rest, dbg) ->
    server_evaluate CS (ss_oprf_seed setup) cred (cq_blinded rq) = Ok (cr_eval resp).
  Proof. intros H. now apply server_login_start_Ok in H as (? & ? & ? & ? & ? & ? & _ & _ & _ & _ & _ & _ & H & _). Qed.
End Accept.
