(* C13 over histories: crashes change nothing.
   In the world of Model/WorldCrash.v a network adversary schedules the parties and chooses every message, and between
   any two steps the server may restart (its setup restored from its serialization) and any pending server or client
   login session may be saved and restored.  For EVERY such history, every restore succeeds and the world reached is
   exactly the world reached by the same history without the crashes.  By induction over the operation list, with the
   invariant that every stored state is the output of the API step that made it (so the reload theorems of
   Theory/Reload.v apply to it). *)
From Coq Require Import List.
From OKE Require Import Bytes Suite Voprf Messages Opaque World WorldCrash.
From OKE Require Import ListLemmas Laws Reload WorldInv.

Section WC.
  Context {E Sc Pk Sk : Type}.
  Variable CS : Suite E Sc Pk Sk.
  Hypothesis HL : HashLaws (hash CS).
  Hypothesis GL : GroupLaws CS.

  Notation W := (World (E := E) (Sc := Sc) (Pk := Pk) (Sk := Sk)).

  (* non-degenerate password: hash-to-group did not hit the identity *)
  Definition good_pw (pw : bytes) : Prop := ve CS (o_h2g (oprf CS) pw (dst_hash_to_group (oprf CS))).

  Definition cli_made (c : CliSession (E := E) (Sc := Sc) (Pk := Pk) (Sk := Sk)) : Prop :=
    good_pw (cs_pw c) /\ exists tape m rest, client_login_start CS tape (cs_pw c) = Ok (cs_state c, m, rest).

  Definition setup_made (s : ServerSetup Pk Sk Sk) : Prop := exists tape rest, server_setup_new CS tape = Ok (s, rest).

  Definition Made (w : W) : Prop := Inv CS w /\ setup_made (w_setup w) /\ Forall cli_made (w_cli w).

  Definition good_ops (ops : list (cop (E := E) (Pk := Pk))) : Prop :=
    forall pw, In (CStep (OClientStart pw)) ops -> good_pw pw.

  Lemma replace_nth_same {A} (l : list A) n x : nth_error l n = Some x -> replace_nth l n x = l.
  Proof.
    unfold replace_nth. revert n. induction l as [|a l IH]; intros [|n] H; try discriminate H.
    - injection H as ->. reflexivity.
    - apply (f_equal (cons a)), IH, H.
  Qed.

  Lemma Made_init tape0 setup rest0 tape : server_setup_new CS tape0 = Ok (setup, rest0) -> Made (init setup tape).
  Proof. intros Hs. split; [apply Inv_init|]. split; [exists tape0, rest0; exact Hs | constructor]. Qed.

  Lemma Made_step w o : (forall pw, o = OClientStart pw -> good_pw pw) -> Made w -> Made (step CS w o).
  Proof.
    intros Hpw (Hi & Hs & Hc). split; [now apply Inv_step|].
    destruct (step_spec CS w o) as [o | c m rest H | | | ].
    2: { split; [exact Hs|]. apply Forall_snoc; [exact Hc|]. split; [now apply Hpw | eauto]. }
    all: split; assumption.
  Qed.

  Lemma Made_run w ops : (forall pw, In (OClientStart pw) ops -> good_pw pw) -> Made w -> Made (run CS w ops).
  Proof. intros Hg. apply run_invariant. intros w' o Hin. apply Made_step. intros pw ->. now apply Hg. Qed.

  (* a restore returns the world unchanged *)
  Lemma reload_is_identity w o : Made w -> (forall o', o <> CStep o') -> cstep CS w o = Ok w.
  Proof.
    intros ((Hv & _) & Hs & Hc) Hne. destruct o as [o' | | j | i]; cbn [cstep].
    - exfalso. now apply (Hne o').
    - destruct Hs as (tape & rest & Hs). rewrite (reload_server_setup CS GL _ _ _ Hs). now destruct w.
    - destruct (nth_error (w_srv w) j) as [s|] eqn:Hn; [|reflexivity].
      destruct (Forall_nth_error Hv Hn) as (tape & rest & dbg & Hst).
      rewrite (reload_server_login CS HL Hst). cbn [bind].
      rewrite replace_nth_same; [now destruct w | rewrite Hn; now destruct s].
    - destruct (nth_error (w_cli w) i) as [c|] eqn:Hn; [|reflexivity].
      destruct (Forall_nth_error Hc Hn) as (Hg & tape & m & rest & Hst).
      destruct (reload_client_login CS GL Hg Hst) as [Hr _]. rewrite Hr. cbn [bind].
      rewrite replace_nth_same; [now destruct w | rewrite Hn; now destruct c].
  Qed.

  Theorem crashes_change_nothing_from w ops :
    Made w -> good_ops ops -> crun CS w ops = Ok (run CS w (erase ops)).
  Proof.
    revert w. induction ops as [|o ops IH]; intros w Hm Hg; cbn [crun erase run fold_left]; [reflexivity|].
    assert (Hg' : good_ops ops) by (intros pw Hin; apply Hg; now right).
    destruct o as [o' | | j | i].
    1: { apply IH; [|exact Hg']. apply Made_step; [|exact Hm]. intros pw ->. apply Hg. now left. }
    all: rewrite (reload_is_identity w _ Hm) by discriminate; cbn [bind]; now apply IH.
  Qed.

  (* for every history that starts from a fresh server setup *)
  Theorem crashes_change_nothing tape0 setup rest0 tape ops :
    server_setup_new CS tape0 = Ok (setup, rest0) -> good_ops ops ->
    crun CS (init setup tape) ops = Ok (run CS (init setup tape) (erase ops)).
  Proof.
    intros Hs Hg. apply crashes_change_nothing_from; [|exact Hg]. now apply Made_init with tape0 rest0.
  Qed.
End WC.
