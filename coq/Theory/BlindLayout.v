(* C17 for the OPRF blind (per group): the blind is the reduction of ONE chunk of the tape - the first chunk
   that yields a valid scalar - preceded only by chunks the sampler rejected, and the rest of the tape is
   returned untouched.  NIST groups: Nok-byte big-endian chunks, accepted iff 0 < x < n (rejection sampling);
   ristretto255: 64-byte little-endian chunks reduced mod l, retried on zero. *)
From Coq Require Import List ZArith Lia.
From OKE Require Import Bytes ListLemmas Field FieldLemmas Weierstrass Curve25519.
Import ListNotations.

(* the injection patterns of the two layout proofs simplify their equations: without this, [firstn 64 tape] is unfolded *)
Local Arguments firstn : simpl never.
Local Arguments skipn : simpl never.

(* A sampler that reads the tape in chunks and stops at the first one it accepts leaves the tape split into
   the rejected chunks, the accepted one and the rest. *)
Definition chunk_layout (Rej Acc : bytes -> Prop) (tape rest : bytes) : Prop :=
  exists rejected accepted, tape = concat rejected ++ accepted ++ rest /\ Forall Rej rejected /\ Acc accepted.

Section Chunks.
  Variables (Rej Acc : bytes -> Prop) (n : nat) (tape : bytes).

  Lemma chunk_accepted : Acc (firstn n tape) -> chunk_layout Rej Acc tape (skipn n tape).
  Proof.
    intros H. exists [], (firstn n tape). split; [apply split_firstn_skipn|]. split; [constructor | exact H].
  Qed.

  Lemma chunk_rejected rest : Rej (firstn n tape) -> chunk_layout Rej Acc (skipn n tape) rest -> chunk_layout Rej Acc tape rest.
  Proof.
    intros H (rej & acc & Ht & Hr & Ha). exists (firstn n tape :: rej), acc.
    split; [cbn [concat]; rewrite <- app_assoc, <- Ht; apply split_firstn_skipn|]. split; [now constructor | exact Ha].
  Qed.
End Chunks.

Lemma chunk_layout_rest {Rej Acc tape rest} : chunk_layout Rej Acc tape rest -> exists used, tape = used ++ rest.
Proof. intros (rej & acc & -> & _). exists (concat rej ++ acc). now rewrite app_assoc. Qed.

Section W.
  Variable C : wcurve.

  Definition w_chunk_rejected (c : bytes) : Prop :=
    length c = w_Nfe C /\ ~ (0 < bytes_to_Z_be c < w_n C)%Z.

  Theorem w_blind_layout {tape k rest} :
    w_random_scalar C tape = Some (k, rest) ->
    chunk_layout w_chunk_rejected (fun accepted => length accepted = w_Nfe C /\ k = bytes_to_Z_be accepted /\ (0 < k < w_n C)%Z)
                 tape rest.
  Proof.
    (* the layout holds of whatever the loop returns, so how much fuel it was given does not matter *)
    unfold w_random_scalar. generalize (S (length tape / w_Nfe C)) as fuel.
    intros fuel. revert tape. induction fuel as [|f IH]; intros tape; cbn [w_random_scalar_fuel]; [discriminate|].
    destruct (Nat.ltb_spec (length tape) (w_Nfe C)) as [|Hl]; [discriminate|].
    pose proof (firstn_length_le tape Hl) as Hc.
    destruct (Z_in_range_spec 0 (bytes_to_Z_be (firstn (w_Nfe C) tape)) (w_n C)) as [Hv|Hv].
    - intros [= <- <-]. apply chunk_accepted. auto.
    - intros H. apply (chunk_rejected _ _ (w_Nfe C)); [split; assumption | exact (IH _ H)].
  Qed.

  Lemma w_random_scalar_range {tape k rest} : w_random_scalar C tape = Some (k, rest) -> (0 < k < w_n C)%Z.
  Proof. intros H. now destruct (w_blind_layout H) as (_ & _ & _ & _ & _ & _ & Hk). Qed.
End W.

Definition r_chunk_rejected (c : bytes) : Prop := length c = 64 /\ (bytes_to_Z_le c mod ell = 0)%Z.

Theorem r_blind_layout {tape k rest} :
  r_random_scalar tape = Some (k, rest) ->
  chunk_layout r_chunk_rejected (fun accepted => length accepted = 64 /\ k = (bytes_to_Z_le accepted mod ell)%Z /\ k <> 0%Z)
               tape rest.
Proof.
  unfold r_random_scalar. generalize (S (length tape / 64)) as fuel.
  intros fuel. revert tape. induction fuel as [|f IH]; intros tape; cbn [r_random_scalar_fuel]; [discriminate|].
  destruct (Nat.ltb_spec (length tape) 64) as [|Hl]; [discriminate|].
  pose proof (firstn_length_le tape Hl) as Hc.
  destruct (Z.eqb_spec (bytes_to_Z_le (firstn 64 tape) mod ell) 0) as [Hz|Hz].
  - intros H. apply (chunk_rejected _ _ 64); [split; assumption | exact (IH _ H)].
  - intros [= <- <-]. apply chunk_accepted. auto.
Qed.

Lemma r_random_scalar_range {tape k rest} : r_random_scalar tape = Some (k, rest) -> (0 < k < ell)%Z.
Proof.
  intros H. destruct (r_blind_layout H) as (_ & acc & _ & _ & _ & -> & Hk).
  pose proof (Z.mod_pos_bound (bytes_to_Z_le acc) ell ltac:(unfold ell; lia)). lia.
Qed.
