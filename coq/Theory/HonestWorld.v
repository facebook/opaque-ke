(* C01 / C16 over histories: in ANY world the adversary can reach - whatever else was started, finished, delivered or
   replayed before, in whatever order, all parties on one shared tape - an honest delivery completes.  The degenerate
   cases excluded are those of C01: the server's evaluation is not the reflected request, and the passwords are
   non-degenerate ([good_pw]; of all client sessions, since Theory/CrashInv.v's invariant is reused).
   If client session i belongs to a user registered (honestly) under the world's setup with (pw, cred, ids), and server
   session j was started for that user's record on session i's own request, then delivering j's response to i makes the
   client accept with the registration's export key and server key, and delivering the client's finalization to j makes
   the server accept with the same session key.  The adversary cannot make an honestly routed login fail.
   From the invariant of Theory/CrashInv.v (every stored state is the output of the step that made it) and
   Theory/Honest.v (honest_login_agrees_any_tapes). *)
From Coq Require Import List.
From OKE Require Import Suite Messages Opaque World.
From OKE Require Import ListLemmas Steps Laws Honest WorldInv CrashInv.

Section HW.
  Context {E Sc Pk Sk : Type}.
  Variable CS : Suite E Sc Pk Sk.
  Hypothesis HL : HashLaws (hash CS).
  Hypothesis GL : GroupLaws CS.

  Theorem honest_delivery_completes
          tape0 setup rest0 tape ops
          tr pw creg rq t2 cred rr tf ids upload ek spk t3 i c j s :
    server_setup_new CS tape0 = Ok (setup, rest0) ->
    (forall pw', In (OClientStart pw') ops -> good_pw CS pw') ->
    (* an honest registration under this setup (on tapes of its own) *)
    client_registration_start CS tr pw = Ok (creg, rq, t2) ->
    server_registration_start CS setup rq cred = Ok rr ->
    client_registration_finish CS creg tf pw rr ids None = Ok (upload, ek, spk, t3) ->
    let w := run CS (@init E Sc Pk Sk setup tape) ops in
    (* client session i is that user's; server session j was started for that user's record on i's own request *)
    nth_error (w_cli w) i = Some c -> cs_pw c = pw ->
    nth_error (w_srv w) j = Some s ->
    sv_file s = Some (server_registration_finish upload) -> sv_cred s = cred -> sv_ids s = ids ->
    sv_rq s = cl_request (cs_state c) ->
    o_eqb (oprf CS) (cq_blinded (sv_rq s)) (cr_eval (sv_resp s)) = false ->
    exists fin key dbg,
      client_login_finish CS (cs_state c) pw (sv_resp s) (sv_ctx s) ids None = Ok (fin, key, ek, spk, dbg) /\
      server_login_finish CS (sv_state s) fin = Ok key.
  Proof.
    intros Hs Hg Hrs Hsr Hrf w Hi <- Hj Hfile <- <- Hrq Hnr.
    assert (Hm : Made CS w) by (apply Made_run; [exact Hg | now apply Made_init with tape0 rest0]).
    destruct Hm as ((Hv & _) & _ & Hc).
    destruct (Forall_nth_error Hc Hi) as (Hgood & tc & m & rest & Hcs).
    destruct (Forall_nth_error Hv Hj) as (tv & restv & dbgv & Hss).
    assert (Hsetup : w_setup w = setup) by (unfold w; apply setup_fixed).
    rewrite Hsetup, Hfile, Hrq in Hss. rewrite Hrq in Hnr.
    pose proof (proj1 (client_login_start_Ok CS _ _ _ _ _ Hcs)) as ->.
    destruct (honest_login_agrees_any_tapes CS HL GL _ _ _ _ _ _ _ _ _ _ _ _ _ _ _ _ _ _ _ _ _ _ _ _ _ _ _
                Hgood Hs Hrs Hsr Hrf Hcs Hss Hnr) as (fin & key & dbg & Hcf & Hsf & _).
    exists fin, key, dbg. split; assumption.
  Qed.
End HW.
