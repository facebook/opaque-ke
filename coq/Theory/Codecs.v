(* C10 / C13: the eleven native decoders of the model are strict (a decoded
   byte string re-encodes to itself, so two different strings are never the same
   message), and what they accept has the suite's fixed length.  Generic in the
   suite; the element-level laws are the fields of [CodecLaws], proved for the
   concrete groups in CodecsConcrete.v.  The converse direction (encode, then
   decode) is Roundtrip.v.
   Each strictness proof inverts the decoder (inv_res, inv_size), replaces the
   encoding of every decoded field by the slice it was decoded from (the field's
   own strictness) and puts the slices back together (slice_skipn, firstn_skipn). *)
From Coq Require Import List Arith Lia.
From OKE Require Import Bytes Suite Generated Voprf Messages ListLemmas BytesLemmas ResultLemmas.

(* [injection] (inside inv_res) would unroll the slices taken at the concrete nonce lengths *)
Local Arguments firstn : simpl never.
Local Arguments skipn : simpl never.

Lemma nonce_lens_eq : ENVELOPE_NONCE_LEN = KE_NONCE_LEN.
Proof. reflexivity. Qed.

Record CodecLaws {E Sc Pk Sk} (CS : Suite E Sc Pk Sk) : Prop := {
  (* key-exchange public keys: the decoder only accepts what the encoder produces *)
  k_canon : forall b pk, k_deser_pk (ke CS) b = Some pk -> k_ser_pk (ke CS) pk = b;
  k_pk_len : forall b pk, k_deser_pk (ke CS) b = Some pk -> length b = k_Npk (ke CS);
  (* private keys and OPRF scalars, on slices of exactly the scalar length *)
  ks_canon : forall b s, length b = k_Nsk (ke CS) -> k_deser_sk (ke CS) b = Some s -> k_ser_sk (ke CS) s = b;
  os_canon : forall b s, length b = o_Nok (oprf CS) -> o_deser_s (oprf CS) b = Some s -> o_ser_s (oprf CS) s = b;
  (* decoded OPRF elements encode on Noe bytes *)
  oe_len : forall b e, o_deser_e (oprf CS) b = Some e -> length (o_ser_e (oprf CS) e) = o_Noe (oprf CS);
}.

Lemma check_slice_size_Ok b n c : check_slice_size b n = Ok c -> c = b /\ length b = n.
Proof. unfold check_slice_size. destruct (Nat.eqb_spec (length b) n); [intros [= <-]; auto | discriminate]. Qed.

Lemma check_slice_size_atleast_Ok b n c : check_slice_size_atleast b n = Ok c -> c = b /\ n <= length b.
Proof. unfold check_slice_size_atleast. destruct (Nat.ltb_spec (length b) n); [discriminate | intros [= <-]; auto]. Qed.

(* a size check that succeeded returned its argument: put the argument back, keep the length fact *)
Ltac inv_size :=
  repeat match goal with
  | H : check_slice_size _ _ = Ok _ |- _ => apply check_slice_size_Ok in H; destruct H as [-> H]
  | H : check_slice_size_atleast _ _ = Ok _ |- _ => apply check_slice_size_atleast_Ok in H; destruct H as [-> H]
  end.

Section Strict.
  Context {E Sc Pk Sk : Type}.
  Variable CS : Suite E Sc Pk Sk.
  Hypothesis LAWS : CodecLaws CS.
  Let Nh := h_len (hash CS).
  Let Noe := o_Noe (oprf CS).
  Let Npk := k_Npk (ke CS).

  Lemma deserialize_element_strict b e :
    deserialize_element CS b = Ok e -> o_ser_e (oprf CS) e = b /\ length b = o_Noe (oprf CS).
  Proof.
    unfold deserialize_element, voprf_deser_elem, oprf_err. intros H. inv_res. subst v.
    apply bytes_eqb_eq in Hc0. split; [exact Hc0|]. rewrite <- Hc0. eapply (oe_len CS LAWS); eauto.
  Qed.

  Lemma pk_deserialize_strict b pk :
    pk_deserialize CS b = Ok pk -> k_ser_pk (ke CS) pk = b.
  Proof. unfold pk_deserialize. intros H. inv_res. eapply k_canon; eauto. Qed.

  Lemma sk_deserialize_strict b s :
    length b = k_Nsk (ke CS) -> sk_deserialize CS b = Ok s -> k_ser_sk (ke CS) s = b.
  Proof. unfold sk_deserialize. intros Hl H. inv_res. eapply ks_canon; eauto. Qed.

  Lemma voprf_deser_scalar_strict b s :
    length b = o_Nok (oprf CS) -> voprf_deser_scalar (oprf CS) b = Ok s -> o_ser_s (oprf CS) s = b.
  Proof.
    unfold voprf_deser_scalar. intros Hl H.
    destruct (Nat.ltb_spec (length b) (o_Nok (oprf CS))); [discriminate|].
    inv_res. rewrite firstn_all2 in H by lia. eapply os_canon; eauto.
  Qed.

  Lemma envelope_strict b e :
    envelope_deserialize CS b = Ok e -> envelope_serialize e = b /\ length b = envelope_len CS.
  Proof.
    unfold envelope_deserialize, envelope_serialize, envelope_len. intros H.
    destruct (Nat.ltb_spec (length b) ENVELOPE_NONCE_LEN) as [|Hl]; [discriminate|].
    inv_res. inv_size. subst e. cbn [env_nonce env_hmac].
    rewrite firstn_skipn. split; [reflexivity|]. rewrite skipn_length in Hb. lia.
  Qed.

  Theorem registration_request_strict b m :
    registration_request_deserialize CS b = Ok m -> registration_request_serialize CS m = b.
  Proof.
    unfold registration_request_deserialize, registration_request_serialize. intros H. inv_res. subst m.
    now apply deserialize_element_strict in Hb.
  Qed.

  Theorem registration_response_strict b m :
    registration_response_deserialize CS b = Ok m -> registration_response_serialize CS m = b.
  Proof.
    unfold registration_response_deserialize, registration_response_serialize. intros H. inv_res. inv_size.
    subst m. cbn [rr_eval rr_server_s_pk].
    apply deserialize_element_strict in Hb1 as [-> _]. apply pk_deserialize_strict in Hb0 as ->.
    apply firstn_skipn.
  Qed.

  Theorem registration_upload_strict b m :
    registration_upload_deserialize CS b = Ok m -> registration_upload_serialize CS m = b.
  Proof.
    unfold registration_upload_deserialize, registration_upload_serialize, slice. intros H. inv_res. inv_size.
    subst m. cbn [ru_envelope ru_masking_key ru_client_s_pk].
    apply envelope_strict in Hb0 as [-> _]. apply pk_deserialize_strict in Hb1 as ->.
    rewrite slice_skipn. apply firstn_skipn.
  Qed.

  Lemma ke1_message_strict b m :
    ke1_message_deserialize CS b = Ok m -> ke1_message_serialize CS m = b.
  Proof.
    unfold ke1_message_deserialize, ke1_message_serialize. intros H. inv_res. inv_size. subst m.
    cbn [k1_nonce k1_client_e_pk]. apply pk_deserialize_strict in Hb0 as ->. apply firstn_skipn.
  Qed.

  Theorem credential_request_strict b m :
    credential_request_deserialize CS b = Ok m -> credential_request_serialize CS m = b.
  Proof.
    unfold credential_request_deserialize, credential_request_serialize. intros H. inv_res. inv_size.
    subst m. cbn [cq_blinded cq_ke1]. apply deserialize_element_strict in Hb0 as [-> _].
    apply ke1_message_strict in Hb1 as ->. apply firstn_skipn.
  Qed.

  Lemma ke2_message_strict b m :
    ke2_message_deserialize CS b = Ok m -> ke2_message_serialize CS m = b.
  Proof.
    unfold ke2_message_deserialize, ke2_message_serialize. intros H. inv_res. inv_size. subst m.
    cbn [k2_nonce k2_server_e_pk k2_mac]. apply pk_deserialize_strict in Hb2 as ->.
    now rewrite firstn_skipn, firstn_skipn.
  Qed.

  Lemma masked_response_roundtrip b :
    length b = masked_response_len CS -> masked_response_serialize (masked_response_deserialize CS b) = b.
  Proof.
    unfold masked_response_len, masked_response_serialize, masked_response_deserialize, slice. intros Hl.
    cbn [mr_nonce mr_hash mr_pk].
    rewrite (firstn_all2 (skipn (_ + _) b)) by (rewrite !skipn_length; lia). rewrite slice_skipn. apply firstn_skipn.
  Qed.

  Theorem credential_response_strict b m :
    credential_response_deserialize CS b = Ok m -> credential_response_serialize CS m = b.
  Proof.
    unfold credential_response_deserialize, credential_response_serialize, slice. intros H. inv_res. inv_size.
    subst m. cbn [cr_eval cr_masking_nonce cr_masked cr_ke2].
    apply deserialize_element_strict in Hb0 as [-> _]. apply ke2_message_strict in Hb1 as ->.
    rewrite masked_response_roundtrip.
    2:{ pose proof nonce_lens_eq. rewrite firstn_length, skipn_length.
        unfold masked_response_len, envelope_len, ke2_message_len in *. lia. }
    rewrite !slice_skipn. apply firstn_skipn.
  Qed.

  Theorem credential_finalization_strict b m :
    credential_finalization_deserialize CS b = Ok m -> credential_finalization_serialize m = b.
  Proof.
    unfold credential_finalization_deserialize, credential_finalization_serialize. intros H. inv_res. inv_size.
    now subst m.
  Qed.

  Theorem server_setup_strict b s :
    server_setup_deserialize CS (private_key_ops (ke CS)) b = Ok s ->
    server_setup_serialize CS (private_key_ops (ke CS)) s = b.
  Proof.
    unfold server_setup_deserialize, server_setup_serialize, keypair_from_private_key_slice, slice.
    cbn [private_key_ops s_deser s_pub s_ser]. intros H. inv_res. inv_size. subst. cbn.
    apply (ks_canon CS LAWS) in Hb0 as ->; [|rewrite firstn_length, skipn_length; lia].
    apply sk_deserialize_strict in Hb3 as ->; [|rewrite skipn_length; lia].
    rewrite slice_skipn. apply firstn_skipn.
  Qed.

  Theorem client_registration_strict b s :
    client_registration_deserialize CS b = Ok s -> client_registration_serialize CS s = b.
  Proof.
    unfold client_registration_deserialize, client_registration_serialize. intros H. inv_res. inv_size. subst s.
    cbn [crs_blind crs_blinded].
    apply deserialize_element_strict in Hb1 as [-> _].
    apply voprf_deser_scalar_strict in Hb0 as ->; [apply firstn_skipn | rewrite firstn_length; lia].
  Qed.

  Lemma ke1_state_strict b s :
    length b = ke1_state_len CS -> ke1_state_deserialize CS b = Ok s -> ke1_state_serialize CS s = b.
  Proof.
    unfold ke1_state_deserialize, ke1_state_serialize, ke1_state_len, slice. intros Hl H. inv_res. inv_size. subst s.
    cbn [k1s_client_e_sk k1s_nonce].
    apply sk_deserialize_strict in Hb0 as ->; [|rewrite firstn_length; lia].
    rewrite (firstn_all2 (skipn _ b)) by (rewrite skipn_length; lia). apply firstn_skipn.
  Qed.

  Theorem client_login_strict b s :
    client_login_deserialize CS b = Ok s -> client_login_serialize CS s = b.
  Proof.
    unfold client_login_deserialize, client_login_serialize, slice. intros H. inv_res. inv_size. subst s.
    cbn [cl_blind cl_request cl_ke1_state].
    apply ke1_state_strict in Hb0 as ->; [|rewrite skipn_length; lia].
    apply credential_request_strict in Hb2 as ->.
    apply voprf_deser_scalar_strict in Hb1 as ->; [|rewrite firstn_length; lia].
    rewrite slice_skipn. apply firstn_skipn.
  Qed.

  Theorem server_login_strict b s :
    server_login_deserialize CS b = Ok s -> server_login_serialize s = b.
  Proof.
    unfold server_login_deserialize, server_login_serialize, slice. intros H. inv_res. inv_size. subst s.
    cbn [sl_km3 sl_hashed_transcript sl_session_key].
    rewrite Nat.add_0_r, (firstn_all2 (skipn (_ + _) b)) by (rewrite skipn_length; lia).
    rewrite slice_skipn. apply firstn_skipn.
  Qed.

  (* fixed lengths: from the size checks; only registration_request_length needs a law (the element's length) *)
  Theorem credential_finalization_length b m :
    credential_finalization_deserialize CS b = Ok m -> length b = Nh.
  Proof. unfold credential_finalization_deserialize. intros H. inv_res. now inv_size. Qed.

  Theorem server_login_length b s : server_login_deserialize CS b = Ok s -> length b = 3 * Nh.
  Proof. unfold server_login_deserialize. intros H. inv_res. now inv_size. Qed.

  Theorem registration_request_length b m :
    registration_request_deserialize CS b = Ok m -> length b = Noe.
  Proof.
    unfold registration_request_deserialize. intros H. inv_res. now apply deserialize_element_strict in Hb.
  Qed.

  Theorem registration_upload_length b m :
    registration_upload_deserialize CS b = Ok m -> length b = Npk + Nh + envelope_len CS.
  Proof.
    unfold registration_upload_deserialize. intros H. inv_res. inv_size.
    apply envelope_strict in Hb0 as [_ Hl]. rewrite skipn_length in Hl. lia.
  Qed.

  Theorem credential_response_length b m :
    credential_response_deserialize CS b = Ok m -> length b = credential_response_len CS.
  Proof.
    unfold credential_response_deserialize, ke2_message_deserialize, credential_response_len, masked_response_len.
    intros H. inv_res. inv_size.
    pose proof nonce_lens_eq. rewrite !skipn_length in *. unfold ke2_message_len, envelope_len in *. lia.
  Qed.

  (* two different byte strings are never the same message *)
  Corollary credential_response_injective b1 b2 m :
    credential_response_deserialize CS b1 = Ok m -> credential_response_deserialize CS b2 = Ok m -> b1 = b2.
  Proof. intros H1 H2. apply credential_response_strict in H1, H2. congruence. Qed.
End Strict.
