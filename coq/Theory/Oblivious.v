(* C14 / C16: what the client derives from its password does not depend on the blind
   (re-registration gives the same masking key); the export key is
   Expand(randomized_pwd, envelope_nonce || "ExportKey") at seal and at open, hence
   independent of everything a login varies; protocol labels are pairwise distinct. *)
From Coq Require Import List.
From OKE Require Import Bytes Suite Generated Hkdf Voprf Messages Envelope Opaque.
From OKE Require Import Steps Laws Honest.

Section Oblivious.
  Context {E Sc Pk Sk : Type}.
  Variable CS : Suite E Sc Pk Sk.
  Hypothesis GL : GroupLaws CS.

  (* two registrations of the same password under the same setup and credential identifier, on
     independent tapes: the same masking key (and randomized password) *)
  Theorem reregistration_same_masking_key
          (setup : ServerSetup Pk Sk Sk) pw cred ids ksf ta ta' tb tb' creg rq r1 rr up ek spk r2 creg' rq' r1' rr' up' ek' spk' r2' :
    ve CS (o_h2g (oprf CS) pw (dst_hash_to_group (oprf CS))) ->
    client_registration_start CS ta pw = Ok (creg, rq, r1) ->
    server_registration_start CS setup rq cred = Ok rr ->
    client_registration_finish CS creg tb pw rr ids ksf = Ok (up, ek, spk, r2) ->
    client_registration_start CS ta' pw = Ok (creg', rq', r1') ->
    server_registration_start CS setup rq' cred = Ok rr' ->
    client_registration_finish CS creg' tb' pw rr' ids ksf = Ok (up', ek', spk', r2') ->
    ru_masking_key up = ru_masking_key up'.
  Proof.
    intros HP H1 H2 H3 H1' H2' H3'.
    destruct (honest_registration CS GL HP H1 H2 H3) as (k & rp & Hk & _ & _ & _ & Hrp & Hmk & _).
    destruct (honest_registration CS GL HP H1' H2' H3') as (k' & rp' & Hk' & _ & _ & _ & Hrp' & Hmk' & _).
    rewrite Hk in Hk'. injection Hk' as <-. rewrite Hrp in Hrp'. injection Hrp' as <-. congruence.
  Qed.

  Theorem export_key_at_seal tape rp spk ids env cpk ek rest :
    envelope_seal CS tape rp spk ids = Ok (env, cpk, ek, rest) ->
    hkdf_expand (hash CS) rp (env_nonce env ++ STR_EXPORT_KEY) (h_len (hash CS)) = Some ek.
  Proof.
    intros H. apply envelope_seal_Ok in H as (kp & u & s & ak & _ & _ & _ & _ & _ & _ & Hk & _).
    now apply envelope_keys_Ok in Hk.
  Qed.

  Theorem export_key_at_open env rp spk ids kp ek u s :
    envelope_open CS env rp spk ids = Ok (kp, ek, u, s) ->
    hkdf_expand (hash CS) rp (env_nonce env ++ STR_EXPORT_KEY) (h_len (hash CS)) = Some ek.
  Proof.
    intros H. apply envelope_open_Ok in H as (ak & _ & _ & _ & Hk & _). now apply envelope_keys_Ok in Hk.
  Qed.

  (* whatever server key, identities, context, session randomness or number of earlier logins:
     every successful opening of one envelope under one randomized password gives one export key *)
  Corollary export_key_stable env rp spk ids kp ek u s spk' ids' kp' ek' u' s' :
    envelope_open CS env rp spk ids = Ok (kp, ek, u, s) ->
    envelope_open CS env rp spk' ids' = Ok (kp', ek', u', s') -> ek = ek'.
  Proof. intros H H'. apply export_key_at_open in H, H'. congruence. Qed.

  Corollary export_key_seal_open tape rp spk ids env cpk ek rest spk' ids' kp ek' u s :
    envelope_seal CS tape rp spk ids = Ok (env, cpk, ek, rest) ->
    envelope_open CS env rp spk' ids' = Ok (kp, ek', u, s) -> ek' = ek.
  Proof. intros H H'. apply export_key_at_seal in H. apply export_key_at_open in H'. congruence. Qed.
End Oblivious.

(* the generated labels (re-checked against /repo on every run) *)
From Coq Require Import String.
Lemma generated_labels_eq_rfc :
  STR_CREDENTIAL_RESPONSE_PAD = bytes_of_string "CredentialResponsePad" /\
  STR_MASKING_KEY = bytes_of_string "MaskingKey" /\
  STR_OPRF_KEY = bytes_of_string "OprfKey" /\
  STR_OPAQUE_DERIVE_KEY_PAIR = bytes_of_string "OPAQUE-DeriveKeyPair" /\
  STR_AUTH_KEY = bytes_of_string "AuthKey" /\
  STR_EXPORT_KEY = bytes_of_string "ExportKey" /\
  STR_PRIVATE_KEY = bytes_of_string "PrivateKey" /\
  STR_CONTEXT = bytes_of_string "OPAQUEv1-" /\
  STR_CLIENT_MAC = bytes_of_string "ClientMAC" /\
  STR_HANDSHAKE_SECRET = bytes_of_string "HandshakeSecret" /\
  STR_SERVER_MAC = bytes_of_string "ServerMAC" /\
  STR_SESSION_KEY = bytes_of_string "SessionKey" /\
  STR_OPAQUE = bytes_of_string "OPAQUE-" /\
  STR_OPAQUE_DERIVE_AUTH_KEY_PAIR = bytes_of_string "OPAQUE-DeriveDiffieHellmanKeyPair" /\
  STR_OPRF = bytes_of_string "OPRFV1-" /\
  STR_DERIVE_KEYPAIR = bytes_of_string "DeriveKeyPair" /\
  ENVELOPE_NONCE_LEN = 32 /\ KE_NONCE_LEN = 32.
Proof. repeat split; reflexivity. Qed.

(* labels used in the same position with the same key are pairwise different, so the derived
   secrets are MACs of visibly different messages *)
Lemma generated_labels_separated :
  STR_AUTH_KEY <> STR_EXPORT_KEY /\ STR_AUTH_KEY <> STR_PRIVATE_KEY /\ STR_EXPORT_KEY <> STR_PRIVATE_KEY /\
  STR_HANDSHAKE_SECRET <> STR_SESSION_KEY /\ STR_SERVER_MAC <> STR_CLIENT_MAC /\
  List.length STR_AUTH_KEY <> List.length STR_MASKING_KEY /\ List.length STR_EXPORT_KEY <> List.length STR_MASKING_KEY.
Proof. repeat split; intro H; discriminate H. Qed.
