(* C05 / C14 / C02 in one statement: after an honest registration with (pw, cred), a login attempt in which the
   client uses ANY other password, or the server evaluates under ANY other credential identifier, is never accepted by
   the client - unless an explicit bad event is exhibited (a collision of HMAC, the hash, HKDF-Expand, the client key
   derivation, Diffie-Hellman in the private key, or the OPRF key derivation).  The contrapositive of
   AcceptedLogin.accepted_login_used_the_registrations_secrets, read for the password and the credential identifier
   (Theory/WrongPassword.v has the case cred' = cred, which needs no [action_free]). *)
From OKE Require Import Suite Voprf Opaque.
From OKE Require Import Laws Bad KeySeparation AcceptedLogin.

Section WC.
  Context {E Sc Pk Sk : Type}.
  Variable CS : Suite E Sc Pk Sk.
  Hypothesis HL : HashLaws (hash CS).
  Hypothesis GL : GroupLaws CS.
  Hypothesis sk_eq_dec : forall a b : Sk, {a = b} + {a <> b}.
  (* the scalar action is free on valid elements and scalars (prime-order group, canonical scalars) *)
  Hypothesis action_free : forall P a b, ve CS P -> vs CS a -> vs CS b -> o_mul (oprf CS) P a = o_mul (oprf CS) P b -> a = b.

  Theorem mismatched_login_never_accepted
          tape setup t1 pw creg rq t2 cred rr ids ksf upload ek spk t3 pw' cred' clog ke1 t4 ctx slog ke2 t5 dbg out :
    ve CS (o_h2g (oprf CS) pw (dst_hash_to_group (oprf CS))) ->
    ve CS (o_h2g (oprf CS) pw' (dst_hash_to_group (oprf CS))) ->
    server_setup_new CS tape = Ok (setup, t1) ->
    client_registration_start CS t1 pw = Ok (creg, rq, t2) ->
    server_registration_start CS setup rq cred = Ok rr ->
    client_registration_finish CS creg t2 pw rr ids ksf = Ok (upload, ek, spk, t3) ->
    pw' <> pw \/ cred' <> cred ->
    client_login_start CS t3 pw' = Ok (clog, ke1, t4) ->
    server_login_start CS (private_key_ops (ke CS)) t4 setup (Some (server_registration_finish upload)) ke1 cred' ctx ids
      = Ok (slog, ke2, t5, dbg) ->
    client_login_finish CS clog pw' ke2 ctx ids ksf = Ok out ->
    BadS CS \/ BadOprfDerive CS.
  Proof.
    intros HP HP' Hs Hrs Hsr Hrf Hne Hls Hss Hacc.
    destruct (accepted_login_used_the_registrations_secrets CS HL GL sk_eq_dec action_free
                _ _ _ _ _ _ _ _ _ _ _ _ _ _ _ _ _ _ _ _ _ _ _ _ _ _ _ HP HP' Hs Hrs Hsr Hrf Hls Hss Hacc)
      as [(Hpw & Hc & _)|HB]; [destruct Hne; contradiction | exact HB].
  Qed.

  (* the case C14 states: same password, the server evaluates under another credential identifier *)
  Corollary other_credential_identifier_never_accepted
          tape setup t1 pw creg rq t2 cred rr ids ksf upload ek spk t3 cred' clog ke1 t4 ctx slog ke2 t5 dbg out :
    ve CS (o_h2g (oprf CS) pw (dst_hash_to_group (oprf CS))) ->
    server_setup_new CS tape = Ok (setup, t1) ->
    client_registration_start CS t1 pw = Ok (creg, rq, t2) ->
    server_registration_start CS setup rq cred = Ok rr ->
    client_registration_finish CS creg t2 pw rr ids ksf = Ok (upload, ek, spk, t3) ->
    cred' <> cred ->
    client_login_start CS t3 pw = Ok (clog, ke1, t4) ->
    server_login_start CS (private_key_ops (ke CS)) t4 setup (Some (server_registration_finish upload)) ke1 cred' ctx ids
      = Ok (slog, ke2, t5, dbg) ->
    client_login_finish CS clog pw ke2 ctx ids ksf = Ok out ->
    BadS CS \/ BadOprfDerive CS.
  Proof.
    intros HP H0 H1 H2 H3 Hne H4 H5 H6.
    exact (mismatched_login_never_accepted _ _ _ _ _ _ _ _ _ _ _ _ _ _ _ _ _ _ _ _ _ _ _ _ _ _
             HP HP H0 H1 H2 H3 (or_intror Hne) H4 H5 H6).
  Qed.
End WC.
