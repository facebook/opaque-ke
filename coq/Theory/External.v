(* C18: a server static key behind the SecretKey interface.  With callbacks that answer
   (public key, Diffie-Hellman) the operations ARE the direct-key operations; a failing
   callback surfaces as the custom error and nothing else is returned. *)
From Coq Require Import List Arith.
From OKE Require Import Suite Generated Messages Envelope TripleDH Opaque Api.
Import ListNotations.
Local Open Scope res_scope.

Section External.
  Context {E Sc Pk Sk : Type}.
  Variable CS : Suite E Sc Pk Sk.

  (* an external key that never fails is the plain private key: same interface record *)
  Theorem ext_key_transparent : ext_key_ops CS None None = private_key_ops (ke CS).
  Proof. reflexivity. Qed.

  Theorem ext_login_start_transparent tape setup file msg cred ctx idu ids :
    run_request CS (QExtSrvLoginStart tape setup file msg cred ctx idu ids None None) =
    run_request CS (QSrvLoginStart tape setup file msg cred ctx idu ids).
  Proof. reflexivity. Qed.

  Theorem ext_reg_start_transparent setup msg cred fp fd :
    run_request CS (QExtSrvRegStart setup msg cred fp fd) = run_request CS (QSrvRegStart setup msg cred).
  Proof. reflexivity. Qed.    (* Api.do_srv_reg_start does not mention its key holder *)

  Theorem ext_setup_transparent tape sk :
    run_request CS (QExtSetup tape sk None None) =
    fin (let* s := of_option (k_deser_sk (ke CS) sk) (ELibrary LPointError) in
         let* '(setup, rest) := server_setup_new_with_key CS tape {| kp_pk := k_pub (ke CS) s; kp_sk := s |} in
         Ok [TB (server_setup_serialize CS (private_key_ops (ke CS)) setup); consumed tape rest]).
  Proof. reflexivity. Qed.

  (* the public-key callback fails: the error is returned, no response, no state *)
  Theorem ext_login_start_pub_fails tape (setup : ServerSetup Pk Sk Sk) f rq cred ctx ids n fd :
    server_login_start CS (ext_key_ops CS (Some n) fd) tape setup (Some f) rq cred ctx ids = Err (ELibrary (LCustom n)).
  Proof. reflexivity. Qed.

  Theorem ext_setup_pub_fails tape sk n fd s :
    k_deser_sk (ke CS) sk = Some s ->
    run_request CS (QExtSetup tape sk (Some n) fd) = RErr (ELibrary (LCustom n)).
  Proof. intros H. cbn [run_request ext_key_ops s_deser s_pub]. rewrite H. reflexivity. Qed.

  (* the Diffie-Hellman callback fails: whenever the direct-key run would have answered, the external-key
     run returns the custom error instead *)
  Theorem ext_login_start_dh_fails tape (setup : ServerSetup Pk Sk Sk) file rq cred ctx ids n r :
    server_login_start CS (private_key_ops (ke CS)) tape setup file rq cred ctx ids = Ok r ->
    server_login_start CS (ext_key_ops CS None (Some n)) tape setup file rq cred ctx ids = Err (ELibrary (LCustom n)).
  Proof.
    (* the two runs share every step up to the first [s_dh] in generate_ke2; follow the successful one there *)
    unfold server_login_start. intros H.
    destruct (match file with Some x => Ok (x, tape) | None => registration_upload_dummy CS tape setup end)
      as [[rec t0]|e]; [|discriminate].
    cbn [private_key_ops ext_key_ops s_pub bind] in *.
    destruct (length t0 <? KE_NONCE_LEN); [discriminate|].
    destruct (mask_response CS _ _ _ _) as [masked|]; [|discriminate].
    destruct (bytestrings_from_identifiers _ _ _) as [[u s]|]; [|discriminate].
    destruct (server_evaluate CS _ _ _) as [ev|]; [|discriminate].
    unfold generate_ke2 in *.
    destruct (keypair_generate_random CS _) as [[ekp t1]|]; [|discriminate]. cbn [bind] in *.
    destruct (generate_nonce _) as [[sn t2]|]; [|discriminate]. cbn [bind] in *.
    destruct (preamble _ _ _ _ _ _ _) as [pre|]; [|discriminate].
    reflexivity.
  Qed.

  (* server_login_start and generate_ke2 mention the key holder in two calls and nowhere else *)
  Lemma login_start_asks_the_key_holder_twice {S} (SK SK' : SkOps Pk S) tape (setup : ServerSetup Pk Sk S) file rq cred ctx ids :
    s_pub SK (kp_sk (ss_keypair setup)) = s_pub SK' (kp_sk (ss_keypair setup)) ->
    s_dh SK (kp_sk (ss_keypair setup)) (k1_client_e_pk (cq_ke1 rq)) =
      s_dh SK' (kp_sk (ss_keypair setup)) (k1_client_e_pk (cq_ke1 rq)) ->
    server_login_start CS SK tape setup file rq cred ctx ids = server_login_start CS SK' tape setup file rq cred ctx ids.
  Proof. intros Hp Hd. unfold server_login_start, generate_ke2. now rewrite Hp, Hd. Qed.

  (* so only the two callbacks are consulted (s_ser / s_deser belong to (de)serialisation of the setup) *)
  Theorem login_start_uses_only_callbacks (SK SK' : SkOps Pk Sk) tape setup file rq cred ctx ids :
    (forall s, s_pub SK s = s_pub SK' s) -> (forall s p, s_dh SK s p = s_dh SK' s p) ->
    server_login_start CS SK tape setup file rq cred ctx ids = server_login_start CS SK' tape setup file rq cred ctx ids.
  Proof. intros Hp Hd. apply login_start_asks_the_key_holder_twice; [apply Hp | apply Hd]. Qed.
End External.
