(* From the generic theorems to the 20 concrete suites.
   The generic theorems have the shape  forall CS, HashLaws (hash CS) -> GroupLaws CS -> Phi CS  (where a theorem
   needs more - decidable equality on private keys, the free scalar action - it is a premise inside Phi).
   For each of the 20 suites HashLaws, CodecLaws, SizeLaws and EncodingLaws are PROVED, and GroupLaws follows
   from CurveLaws (Theory/GroupSplit.v); so at a concrete suite the only hypothesis left is CurveLaws -
   six facts of elliptic-curve arithmetic. *)
From OKE Require Import Suite Laws CodecsConcrete SuitesLaws GroupSplit.

Theorem at_the_20_suites (Phi : forall E Sc Pk Sk, Suite E Sc Pk Sk -> Prop) :
  (forall E Sc Pk Sk (CS : Suite E Sc Pk Sk), HashLaws (hash CS) -> GroupLaws CS -> Phi E Sc Pk Sk CS) ->
  all_suites (fun E Sc Pk Sk CS => CurveLaws CS -> Phi E Sc Pk Sk CS).
Proof.
  intros H. refine (all_suites_map2 _ _ _ _ proved_laws_20 group_laws_20).
  intros E Sc Pk Sk CS [HL _] HG CV. exact (H E Sc Pk Sk CS HL (HG CV)).
Qed.

Theorem at_the_20_suites_g (Phi : forall E Sc Pk Sk, Suite E Sc Pk Sk -> Prop) :
  (forall E Sc Pk Sk (CS : Suite E Sc Pk Sk), GroupLaws CS -> Phi E Sc Pk Sk CS) ->
  all_suites (fun E Sc Pk Sk CS => CurveLaws CS -> Phi E Sc Pk Sk CS).
Proof. intros H. apply at_the_20_suites. intros E Sc Pk Sk CS _ GL. exact (H E Sc Pk Sk CS GL). Qed.
