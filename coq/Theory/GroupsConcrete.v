(* C19 / C11 for the concrete groups: what IS proved about them (no group law).
   - scalar codecs round-trip exactly in both directions (P-256/384/521, ristretto255; X25519 raw strings);
   - RFC 7748 clamping: idempotent, never zero, accepted by the private-key decoder;
   - seeded key derivation returns a valid non-zero scalar (NIST, ristretto255) resp. the clamped seed
     (Curve25519);
   - the point validators only accept what they should: a NIST decoder result is a finite point (x, y) with
     x reduced and y*y = x^3 + ax + b mod p; an X25519 public key is 32 bytes, not the identity and not of small
     order ([8]u <> 0); ristretto255 keys pass the RFC 9496 decoder and are not the identity; decoded
     scalars are non-zero and below the group order. *)
From Coq Require Import List ZArith Lia Bool.
From Coq Require Import Init.Byte.
From OKE Require Import Bytes Suite KeGroup ListLemmas BytesLemmas FieldLemmas.
From OKE Require Import Field Weierstrass Curve25519 Suites.
Import ListNotations.

(* Model/KeGroup.v: whatever the counter loop returns is a non-zero result of hash_to_scalar *)
Lemma derive_auth_loop_ind {Sk} (h2s : HashOps -> bytes -> bytes -> option Sk) is_zero (Q : Sk -> Prop) h prefix dst :
  (forall m s, h2s h m dst = Some s -> is_zero s = false -> Q s) ->
  forall fuel counter sk, derive_auth_loop h2s is_zero h prefix dst counter fuel = Some sk -> Q sk.
Proof.
  intros HQ. induction fuel as [|f IH]; intros counter sk; cbn [derive_auth_loop]; [discriminate|].
  destruct (h2s h _ dst) as [s|] eqn:Hs; [|discriminate].
  destruct (is_zero s) eqn:Hz; [apply IH|]. intros [= <-]. exact (HQ _ _ Hs Hz).
Qed.

Lemma derive_auth_keypair_default_ind {Sk} (h2s : HashOps -> bytes -> bytes -> option Sk) is_zero (Q : Sk -> Prop) h id seed sk :
  (forall m d s, h2s h m d = Some s -> is_zero s = false -> Q s) ->
  derive_auth_keypair_default h2s is_zero h id seed = Some sk -> Q sk.
Proof.
  intros HQ. unfold derive_auth_keypair_default. destruct (i2osp_nat 2 _); [|discriminate].
  apply derive_auth_loop_ind. intros m. apply HQ.
Qed.

(* a non-zero residue (the is_zero tests reduce once more) lies strictly between 0 and the modulus *)
Lemma mod_nonzero_range x n : (0 < n)%Z -> ((x mod n) mod n =? 0)%Z = false -> (0 < x mod n < n)%Z.
Proof. intros Hn Hz%Z.eqb_neq. rewrite Z.mod_mod in Hz by lia. pose proof (Z.mod_pos_bound x n Hn). lia. Qed.

Lemma sq_neg_plain p y : (((p - y) * (p - y)) mod p = (y * y) mod p)%Z.
Proof.
  replace ((p - y) * (p - y))%Z with (y * y + (p - 2 * y) * p)%Z by ring.
  apply Z_mod_plus_full.
Qed.

Section W.
  Variable C : wcurve.
  Hypothesis order_fits : (0 < w_n C < 256 ^ Z.of_nat (w_Nfe C))%Z.

  Theorem w_scalar_roundtrip k : (0 < k < w_n C)%Z -> w_deser_scalar C (w_ser_scalar C k) = Some k.
  Proof.
    intros Hk. unfold w_deser_scalar, w_ser_scalar.
    rewrite Z_to_bytes_be_length, Nat.eqb_refl. cbn [orb].
    rewrite bytes_to_Z_be_roundtrip by lia. now destruct (Z_in_range_spec 0 k (w_n C)).
  Qed.

  Theorem w_scalar_valid b k : w_deser_scalar C b = Some k -> (0 < k < w_n C)%Z.
  Proof.
    unfold w_deser_scalar. destruct (_ || _); [|discriminate].
    destruct (Z_in_range_spec 0 (bytes_to_Z_be b) (w_n C)); [|discriminate]. now intros [= <-].
  Qed.

  Lemma w_scalar_canon b k : length b = w_Nfe C -> w_deser_scalar C b = Some k -> w_ser_scalar C k = b.
  Proof.
    unfold w_deser_scalar, w_ser_scalar. intros Hl H.
    destruct (_ || _); [|discriminate].
    destruct (_ && _); [|discriminate]. injection H as <-. now apply be_roundtrip.
  Qed.

  Lemma w_h2s_range h m d : w_is_zero C (w_hash_to_scalar C h m d) = false -> (0 < w_hash_to_scalar C h m d < w_n C)%Z.
  Proof.
    unfold w_is_zero, w_hash_to_scalar, hash_to_field. cbn [split_reduce]. apply mod_nonzero_range. lia.
  Qed.

  (* seeded derivation: a non-zero scalar below the order, or an error - never an invalid key *)
  Theorem w_derive_valid h id seed k :
    k_derive (ke_weierstrass C) h id seed = Some k -> (0 < k < w_n C)%Z /\ k_deser_sk (ke_weierstrass C) (k_ser_sk (ke_weierstrass C) k) = Some k.
  Proof.
    intros H. assert (Hk : (0 < k < w_n C)%Z); [|split; [exact Hk | now apply w_scalar_roundtrip]].
    revert H. apply (derive_auth_keypair_default_ind _ _ (fun k => 0 < k < w_n C)%Z). intros m d s Hs _. cbv beta zeta in Hs.
    destruct (w_is_zero C (w_hash_to_scalar C h m d)) eqn:Hz; [discriminate|]. injection Hs as <-. now apply w_h2s_range.
  Qed.

  Hypothesis p_pos : (0 < w_p C)%Z.

  Theorem w_decoder_only_accepts_curve_points c b P :
    w_deser_gen C c b = Some P ->
    length b = w_Npk C /\
    exists x y, P = Some (x, y) /\ (0 <= x < w_p C)%Z /\ ((y * y) mod w_p C = w_rhs C x)%Z.
  Proof.
    unfold w_deser_gen. destruct (Nat.eqb_spec (length b) (w_Npk C)) as [Hl|]; cbn [negb]; [|discriminate].
    destruct b as [|tag xb]; [discriminate|].
    destruct (negb _); [discriminate|].
    destruct (Z.leb_spec (w_p C) (bytes_to_Z_be xb)) as [|Hx]; [discriminate|].
    unfold w_sqrt. set (x := bytes_to_Z_be xb) in *. set (r := fpow (w_p C) (w_rhs C x) ((w_p C + 1) / 4)).
    destruct (Z.eqb_spec ((r * r) mod w_p C) (w_rhs C x mod w_p C)) as [Hr|]; [|discriminate].
    intros [= <-]. split; [exact Hl|].
    assert (Hrhs : (w_rhs C x mod w_p C = w_rhs C x)%Z).
    { unfold w_rhs. apply Z.mod_mod. lia. }
    rewrite Hrhs in Hr.
    assert (Hx0 : (0 <= x)%Z) by (unfold x, bytes_to_Z_be; apply N2Z.is_nonneg).
    eexists x, _. split; [reflexivity|]. split; [lia|].
    (* tag 5 (compact) selects min r (p - r), tags 2 / 3 the root of that parity: r or p - r, same square *)
    destruct ((b2n tag =? 5)%N).
    - unfold Z.min. destruct (r ?= w_p C - r)%Z; auto.
      rewrite sq_neg_plain. exact Hr.
    - destruct (_ =? _)%Z; [exact Hr|]. rewrite <- Z.mul_mod, sq_neg_plain by lia. exact Hr.
  Qed.
End W.

Lemma P256_order_fits : (0 < w_n P256 < 256 ^ Z.of_nat (w_Nfe P256))%Z. Proof. split; reflexivity. Qed.
Lemma P384_order_fits : (0 < w_n P384 < 256 ^ Z.of_nat (w_Nfe P384))%Z. Proof. split; reflexivity. Qed.
Lemma P521_order_fits : (0 < w_n P521 < 256 ^ Z.of_nat (w_Nfe P521))%Z. Proof. split; reflexivity. Qed.

Lemma ell_fits : (0 < ell < 256 ^ Z.of_nat 32)%Z. Proof. split; reflexivity. Qed.

Theorem r_scalar_roundtrip k : (0 < k < ell)%Z -> r_deser_scalar (r_ser_scalar k) = Some k.
Proof.
  intros Hk. unfold r_deser_scalar, r_ser_scalar. rewrite Z_to_bytes_le_length. cbn [Nat.eqb negb].
  pose proof ell_fits. rewrite bytes_to_Z_le_roundtrip by lia. now destruct (Z_in_range_spec 0 k ell).
Qed.

Theorem r_scalar_valid b k : r_deser_scalar b = Some k -> (0 < k < ell)%Z /\ length b = 32.
Proof.
  unfold r_deser_scalar. destruct (Nat.eqb_spec (length b) 32); cbn [negb]; [|discriminate].
  destruct (Z_in_range_spec 0 (bytes_to_Z_le b) ell); [|discriminate]. now intros [= <-].
Qed.

Lemma r_scalar_canon b k : length b = 32 -> r_deser_scalar b = Some k -> r_ser_scalar k = b.
Proof.
  unfold r_deser_scalar, r_ser_scalar. intros Hl H.
  destruct (negb _); [discriminate|]. destruct (_ && _); [|discriminate]. injection H as <-. now apply le_roundtrip.
Qed.

Lemma r_h2s_range h m d : r_is_zero (r_hash_to_scalar h m d) = false -> (0 < r_hash_to_scalar h m d < ell)%Z.
Proof.
  unfold r_is_zero, r_hash_to_scalar. apply mod_nonzero_range, ell_fits.
Qed.

Theorem r_derive_valid h id seed k : k_derive K_R255 h id seed = Some k -> (0 < k < ell)%Z.
Proof.
  apply (derive_auth_keypair_default_ind _ _ (fun k => 0 < k < ell)%Z). intros m d s [= <-]. apply r_h2s_range.
Qed.

Definition clamp_lo (x : byte) : byte := n2b (N.land (b2n x) 248).
Definition clamp_hi (x : byte) : byte := n2b (N.lor (N.land (b2n x) 127) 64).

Lemma clamp_lo_idem x : clamp_lo (clamp_lo x) = clamp_lo x.
Proof. destruct x; reflexivity. Qed.
Lemma clamp_hi_idem x : clamp_hi (clamp_hi x) = clamp_hi x.
Proof. destruct x; reflexivity. Qed.
Lemma clamp_hi_nonzero x : clamp_hi x <> x00.
Proof. destruct x; discriminate. Qed.

(* clamping touches the first and the last of 32 bytes *)
Lemma clamp_ends b0 mid b31 : length mid = 30 -> clamp (b0 :: mid ++ [b31]) = clamp_lo b0 :: mid ++ [clamp_hi b31].
Proof. intros H. unfold clamp. now rewrite firstn_app_exact', skipn_app_exact' by now rewrite H. Qed.

Theorem clamp_length b : length b = 32 -> length (clamp b) = 32.
Proof.
  intros (b0 & mid & b31 & -> & Lm)%list_ends. rewrite clamp_ends by exact Lm.
  cbn [length]. rewrite !app_length. cbn [length]. lia.
Qed.

Theorem clamp_idempotent b : length b = 32 -> clamp (clamp b) = clamp b.
Proof.
  intros (b0 & mid & b31 & -> & Lm)%list_ends. now rewrite !clamp_ends, clamp_lo_idem, clamp_hi_idem by exact Lm.
Qed.

Theorem clamp_nonzero b : length b = 32 -> clamp b <> zeros 32.
Proof.
  intros (b0 & mid & b31 & -> & Lm)%list_ends. rewrite clamp_ends by exact Lm. intros Hz.
  apply (f_equal (fun l => last l x01)) in Hz.
  rewrite app_comm_cons, last_last in Hz. now apply (clamp_hi_nonzero b31).
Qed.

(* a clamped string is a valid Curve25519 private key and round-trips exactly *)
Theorem x25519_clamped_is_valid_key b : length b = 32 -> x_deser_sk (clamp b) = Some (clamp b).
Proof.
  intros H. unfold x_deser_sk. rewrite (clamp_length b H). cbn [Nat.eqb negb].
  rewrite (clamp_idempotent b H), bytes_eqb_refl. cbn [negb].
  destruct (bytes_eqb (clamp b) (zeros 32)) eqn:E; [|reflexivity].
  apply bytes_eqb_eq in E. now apply clamp_nonzero in E.
Qed.

(* DeriveDiffieHellmanKeyPair for Curve25519 is RFC 7748 clamping of the seed, whatever the OPRF suite *)
Theorem x25519_derive_is_clamp h id seed : k_derive K_X25519 h id seed = Some (clamp seed).
Proof. reflexivity. Qed.

Theorem x25519_sk_valid b s : x_deser_sk b = Some s -> s = b /\ length b = 32 /\ clamp b = b /\ b <> zeros 32.
Proof.
  unfold x_deser_sk. destruct (Nat.eqb_spec (length b) 32); cbn [negb]; [|discriminate].
  destruct (bytes_eqb (clamp b) b) eqn:E1; cbn [negb]; [|discriminate].
  destruct (bytes_eqb b (zeros 32)) eqn:E2; [discriminate|]. intros [= <-].
  apply bytes_eqb_eq in E1. apply bytes_eqb_neq in E2. auto.
Qed.

Theorem x25519_pk_valid b pk :
  x_deser_pk b = Some pk ->
  pk = b /\ length b = 32 /\ mont_is_identity b = false /\ mont_is_identity (mont_mul_bits 4 8 b) = false.
Proof.
  unfold x_deser_pk. destruct (Nat.eqb_spec (length b) 32); cbn [negb]; [|discriminate].
  destruct (mont_is_identity b) eqn:E1; [discriminate|].
  destruct (mont_is_identity (mont_mul_bits 4 8 b)) eqn:E2; [discriminate|]. intros [= <-]. auto.
Qed.

Theorem ristretto_pk_valid b e :
  rb_deser b = Some e -> e = b /\ length b = 32 /\ exists P, r_deser_gen false b = Some P.
Proof.
  unfold rb_deser, rb_valid. destruct (r_deser_gen false b) as [P|] eqn:E; [|discriminate].
  intros [= <-]. split; [reflexivity|]. split; [|eauto].
  unfold r_deser_gen in E. destruct (Nat.eqb_spec (length b) 32); [assumption|discriminate].
Qed.

Lemma fm_0 : fm 0 = 0%Z.
Proof. apply Zmod_0_l. Qed.

Lemma cabs_0 : cabs 0 = 0%Z.
Proof. unfold cabs. rewrite fm_0. reflexivity. Qed.

Lemma r_eqb_x0_identity y z t : r_eqb (0, y, z, t)%Z e_identity = true.
Proof.
  unfold r_eqb, e_identity. replace (0 * 1 - y * 0)%Z with 0%Z by ring. rewrite fm_0. reflexivity.
Qed.

(* With s = 0 the decoded point has x = |2 s dx| = 0 whatever the inverse square root is, and every
   point with x = 0 is ristretto-equal to the identity: either an earlier test or the identity filter
   rejects.  No field constant is evaluated: the square root is destructed, not computed, and each
   rewrite names its instance (one that has to search up to conversion unfolds c_d and sqrt_m1). *)
Lemma r_deser_gen_s0 bs : bytes_to_Z_le bs = 0%Z -> r_deser_gen false bs = None.
Proof.
  intros Hs. unfold r_deser_gen. rewrite Hs. cbv zeta.
  destruct (negb _); [reflexivity|]. destruct (_ || _); [reflexivity|].
  destruct (sqrt_ratio_m1 _ _) as [ok invsqrt].
  set (dx := fm (invsqrt * _)). rewrite (Z.mul_0_r 2), (Z.mul_0_l dx), cabs_0.
  destruct (negb ok || _ || _); [reflexivity|].
  rewrite r_eqb_x0_identity. reflexivity.
Qed.

(* the ristretto255 decoder with the identity filter never returns the identity encoding *)
Theorem ristretto_rejects_identity : rb_deser rb_identity = None.
Proof. unfold rb_deser, rb_valid. rewrite r_deser_gen_s0; reflexivity. Qed.

(* the z-coordinate the ladder ends with; the result of [mont_mul_bits] is x / z *)
Definition ladder_z (n : nat) (k : Z) (u : bytes) : Z :=
  let x1 := fm (bytes_to_Z_le u mod two255) in
  let '(x2, z2, x3, z3, swap) := ladder n k x1 (1, 0, x1, 1, 0)%Z in if (swap =? 1)%Z then z3 else z2.

Lemma finv_0 : finv p25519 0 = 0%Z.
Proof. unfold finv. rewrite fpow_spec, Z.pow_0_l by (unfold p25519; lia). reflexivity. Qed.

(* z = 0 is the point at infinity: no inversion is needed to see it *)
Lemma mont_mul_bits_z0 n k u : ladder_z n k u = 0%Z -> mont_is_identity (mont_mul_bits n k u) = true.
Proof.
  unfold ladder_z, mont_mul_bits. cbv zeta. destruct (ladder _ _ _ _) as [[[[x2 z2] x3] z3] swap].
  destruct (swap =? 1)%Z; intros ->; rewrite finv_0, Z.mul_0_r; reflexivity.
Qed.

Lemma x_deser_pk_small_order bs : mont_is_identity bs = true \/ ladder_z 4 8 bs = 0%Z -> x_deser_pk bs = None.
Proof.
  unfold x_deser_pk. destruct (negb _); [reflexivity|].
  intros [->| ->%mont_mul_bits_z0]; [reflexivity|]. now destruct (mont_is_identity bs).
Qed.

(* the small-order Curve25519 u-coordinates are rejected: 0, 1, -1, the non-canonical p and p + 1, and the two of
   order 8.  0 and p are the identity; for the others [8]u has z = 0, which is all that is evaluated. *)
Theorem x25519_rejects_small_order :
  forallb (fun u => match x_deser_pk (Z_to_bytes_le 32 u) with None => true | Some _ => false end)
          [0; 1; p25519 - 1; p25519; p25519 + 1;
           325606250916557431795983626356110631294008115727848805560023387167927233504;
           39382357235489614581723060781553021112529911719440698176882885853963445705823]%Z = true.
Proof.
  apply forallb_forall. intros u Hu. rewrite x_deser_pk_small_order; [reflexivity|].
  destruct Hu as [<-|[<-|[<-|[<-|[<-|[<-|[<-|[]]]]]]]]; [left|right|right|left|right|right|right]; vm_compute; reflexivity.
Qed.

Lemma r_ser_length P : length (r_ser P) = 32.
Proof. unfold r_ser. destruct P as [[[X Y] Z0] T]. apply Z_to_bytes_le_length. Qed.

Lemma mont_mul_bits_length n k u : length (mont_mul_bits n k u) = 32.
Proof.
  unfold mont_mul_bits. destruct (ladder _ _ _ _) as [[[[x2 z2] x3] z3] swap].
  destruct (swap =? 1)%Z; apply Z_to_bytes_le_length.
Qed.

