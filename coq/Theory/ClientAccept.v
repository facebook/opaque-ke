(* C04: what the client's final login step checks (acceptance characterisation), that every
   component of the response other than the MAC enters the transcript the MAC covers, and that a
   response altered in the MAC field only is rejected. *)
From Coq Require Import List.
From OKE Require Import Bytes Suite Generated Hkdf Messages Envelope TripleDH Opaque.
From OKE Require Import BytesLemmas ResultLemmas Transcript.
Import ListNotations.

Section ClientAccept.
  Context {E Sc Pk Sk : Type}.
  Variable CS : Suite E Sc Pk Sk.

  (* the transcript the client hashes, as a function of the response *)
  Definition client_l2 (r : CredentialResponse E Pk) : bytes :=
    credential_response_without_ke (o_ser_e (oprf CS) (cr_eval r)) (cr_masking_nonce r) (cr_masked r).
  Definition client_request_bytes (st : ClientLogin E Sc Pk Sk) : bytes :=
    o_ser_e (oprf CS) (cq_blinded (cl_request st)) ++ ke1_message_serialize CS (cq_ke1 (cl_request st)).

  (* (i) acceptance characterisation: the exact conjunction the code checks *)
  Theorem client_accepts_iff st pw r ctx ids ksf fin sk ek spk dbg :
    client_login_finish CS st pw r ctx ids ksf = Ok (fin, sk, ek, spk, dbg) ->
    exists rp mk env kp u s pre km2 km3 hs,
      o_eqb (oprf CS) (cq_blinded (cl_request st)) (cr_eval r) = false /\
      get_password_derived_key CS pw (cl_blind st) (cr_eval r) ksf = Ok rp /\
      hkdf_expand (hash CS) rp STR_MASKING_KEY (h_len (hash CS)) = Some mk /\
      unmask_response CS mk (cr_masking_nonce r) (cr_masked r) = Ok (spk, env) /\
      envelope_open CS env rp spk ids = Ok (kp, ek, u, s) /\
      preamble (match ctx with Some c => c | None => [] end) u (client_request_bytes st) s (client_l2 r)
               (k2_nonce (cr_ke2 r)) (k_ser_pk (ke CS) (k2_server_e_pk (cr_ke2 r))) = Ok pre /\
      derive_3dh_keys CS (k_dh (ke CS) (k2_server_e_pk (cr_ke2 r)) (k1s_client_e_sk (cl_ke1_state st)))
                         (k_dh (ke CS) spk (k1s_client_e_sk (cl_ke1_state st)))
                         (k_dh (ke CS) (k2_server_e_pk (cr_ke2 r)) (kp_sk kp))
                         (h_hash (hash CS) pre) = Ok (sk, km2, km3, hs) /\
      k2_mac (cr_ke2 r) = h_hmac (hash CS) km2 (h_hash (hash CS) pre) /\
      cf_mac fin = h_hmac (hash CS) km3 (h_hash (hash CS) (pre ++ k2_mac (cr_ke2 r))).
  Proof.
    unfold client_login_finish. intros H.
    destruct (o_eqb (oprf CS) _ _) eqn:Hr; [discriminate|].
    apply bind_Ok in H as (rp & Hrp & H). apply bind_Ok in H as (mk & Hmk & H).
    apply bind_Ok in H as ([spk0 env] & Hun & H). apply bind_Ok in H as ([[[kp ek0] u] s] & Hop & H).
    apply bind_Ok in H as ([[sk0 fin0] dbg0] & Hke3 & H). injection H as <- <- <- <- <-.
    apply of_option_Ok in Hmk. apply map_err_Ok in Hun, Hop.
    unfold generate_ke3 in Hke3.
    apply bind_Ok in Hke3 as (pre & Hpre & Hke3).
    apply bind_Ok in Hke3 as ([[[sk1 km2] km3] hs] & Hk & Hke3).
    destruct (bytes_eqb _ _) eqn:Hm; [|discriminate]. injection Hke3 as <- <- <-.
    apply bytes_eqb_eq in Hm.
    exists rp, mk, env, kp, u, s, pre, km2, km3, hs. repeat split; auto.
  Qed.

  (* every component of the response other than the MAC is inside the transcript *)
  Theorem preamble_covers_response context u req s (r : CredentialResponse E Pk) pre :
    preamble context u req s (client_l2 r) (k2_nonce (cr_ke2 r)) (k_ser_pk (ke CS) (k2_server_e_pk (cr_ke2 r))) = Ok pre ->
    exists c, lenprefix 2 context = Some c /\
      pre = STR_CONTEXT ++ c ++ u ++ req ++ s ++
            (o_ser_e (oprf CS) (cr_eval r) ++ cr_masking_nonce r ++ masked_response_serialize (cr_masked r)) ++
            k2_nonce (cr_ke2 r) ++ k_ser_pk (ke CS) (k2_server_e_pk (cr_ke2 r)).
  Proof. exact preamble_Ok. Qed.

  (* (ii) a response equal to an accepted one except in the MAC field is rejected *)
  Definition with_mac (r : CredentialResponse E Pk) (mac : bytes) : CredentialResponse E Pk :=
    {| cr_eval := cr_eval r; cr_masking_nonce := cr_masking_nonce r; cr_masked := cr_masked r;
       cr_ke2 := {| k2_nonce := k2_nonce (cr_ke2 r); k2_server_e_pk := k2_server_e_pk (cr_ke2 r); k2_mac := mac |} |}.

  Theorem mac_only_altered_rejected st pw r ctx ids ksf out mac' :
    client_login_finish CS st pw r ctx ids ksf = Ok out ->
    mac' <> k2_mac (cr_ke2 r) ->
    client_login_finish CS st pw (with_mac r mac') ctx ids ksf = Err EInvalidLogin.
  Proof.
    intros H Hne. destruct out as [[[[fin sk] ek] spk] dbg].
    apply client_accepts_iff in H as (rp & mk & env & kp & u & s & pre & km2 & km3 & hs & Hr & Hrp & Hmk & Hun & Hop & Hpre & Hk & Hm & _).
    (* every step before the comparison reads r outside the MAC field only, so it returns what it returned for r *)
    unfold client_login_finish, generate_ke3, with_mac. cbn [cr_eval cr_masking_nonce cr_masked cr_ke2 k2_nonce k2_server_e_pk k2_mac].
    rewrite Hr, Hrp. cbn [bind]. rewrite Hmk. cbn [of_option bind]. rewrite Hun. cbn [map_err bind]. rewrite Hop. cbn [map_err bind].
    unfold client_request_bytes, client_l2 in Hpre. rewrite Hpre. cbn [bind]. rewrite Hk. cbn [bind].
    destruct (bytes_eqb _ mac') eqn:Hm'; [|reflexivity]. apply bytes_eqb_eq in Hm'. congruence.
  Qed.

  (* no partial outputs: a rejected response yields no finalization, session key or export key
     (immediate from the result type; stated for the record) *)
  Theorem rejected_yields_nothing st pw r ctx ids ksf e :
    client_login_finish CS st pw r ctx ids ksf = Err e ->
    forall out, client_login_finish CS st pw r ctx ids ksf <> Ok out.
  Proof. intros H out. rewrite H. discriminate. Qed.
End ClientAccept.
