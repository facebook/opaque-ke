(* C11: the native decoders build group elements, scalars and keys only through the element-level
   validators of the suite: for the five messages, the server setup and the client login state, the decoded
   value contains, in each field stated below, a value the validator accepted on exactly that field's bytes
   (and, for the OPRF element of the two login messages, not the identity). *)
From Coq Require Import List Arith.
From OKE Require Import Bytes Suite Generated Voprf Messages ResultLemmas Codecs.

(* as in Codecs.v: keeps inv_res from unrolling the slices taken at the concrete nonce lengths *)
Local Arguments firstn : simpl never.
Local Arguments skipn : simpl never.

Section FV.
  Context {E Sc Pk Sk : Type}.
  Variable CS : Suite E Sc Pk Sk.

  Lemma deserialize_element_validated b e :
    deserialize_element CS b = Ok e -> o_deser_e (oprf CS) (firstn (o_Noe (oprf CS)) b) = Some e.
  Proof. unfold deserialize_element, voprf_deser_elem, oprf_err. intros H. inv_res. now subst. Qed.

  Lemma scalar_validated b s :
    voprf_deser_scalar (oprf CS) b = Ok s -> o_deser_s (oprf CS) (firstn (o_Nok (oprf CS)) b) = Some s.
  Proof.
    unfold voprf_deser_scalar. destruct (length b <? o_Nok (oprf CS)); [discriminate|]. apply of_option_Ok.
  Qed.

  Theorem registration_request_fields_valid b m :
    registration_request_deserialize CS b = Ok m ->
    o_deser_e (oprf CS) (firstn (o_Noe (oprf CS)) b) = Some (rq_blinded m).
  Proof.
    unfold registration_request_deserialize. intros H. inv_res. subst m. now apply deserialize_element_validated.
  Qed.

  Theorem registration_response_fields_valid b m :
    registration_response_deserialize CS b = Ok m ->
    o_deser_e (oprf CS) (firstn (o_Noe (oprf CS)) b) = Some (rr_eval m) /\
    k_deser_pk (ke CS) (skipn (o_Noe (oprf CS)) b) = Some (rr_server_s_pk m).
  Proof.
    unfold registration_response_deserialize, pk_deserialize. intros H. inv_res. inv_size. subst m.
    apply deserialize_element_validated in Hb1. rewrite firstn_firstn, Nat.min_id in Hb1. auto.
  Qed.

  Theorem registration_upload_fields_valid b m :
    registration_upload_deserialize CS b = Ok m ->
    k_deser_pk (ke CS) (firstn (k_Npk (ke CS)) b) = Some (ru_client_s_pk m).
  Proof.
    unfold registration_upload_deserialize, pk_deserialize. intros H. inv_res. inv_size. now subst m.
  Qed.

  Theorem credential_request_fields_valid b m :
    credential_request_deserialize CS b = Ok m ->
    o_deser_e (oprf CS) (firstn (o_Noe (oprf CS)) b) = Some (cq_blinded m) /\
    o_eqb (oprf CS) (o_identity (oprf CS)) (cq_blinded m) = false /\
    k_deser_pk (ke CS) (skipn KE_NONCE_LEN (skipn (o_Noe (oprf CS)) b)) = Some (k1_client_e_pk (cq_ke1 m)).
  Proof.
    unfold credential_request_deserialize, ke1_message_deserialize, pk_deserialize. intros H. inv_res. inv_size.
    subst.
    apply deserialize_element_validated in Hb0. rewrite firstn_firstn, Nat.min_id in Hb0. auto.
  Qed.

  Theorem credential_response_fields_valid b m :
    credential_response_deserialize CS b = Ok m ->
    o_deser_e (oprf CS) (firstn (o_Noe (oprf CS)) b) = Some (cr_eval m) /\
    o_eqb (oprf CS) (o_identity (oprf CS)) (cr_eval m) = false /\
    exists pkb, k_deser_pk (ke CS) pkb = Some (k2_server_e_pk (cr_ke2 m)) /\
                pkb = firstn (k_Npk (ke CS)) (skipn KE_NONCE_LEN
                        (skipn (o_Noe (oprf CS) + KE_NONCE_LEN + (k_Npk (ke CS) + envelope_len CS)) b)).
  Proof.
    unfold credential_response_deserialize, ke2_message_deserialize, pk_deserialize. intros H. inv_res. inv_size.
    subst.
    apply deserialize_element_validated in Hb0. rewrite firstn_firstn, Nat.min_id in Hb0. eauto.
  Qed.

  Theorem server_setup_fields_valid b s :
    server_setup_deserialize CS (private_key_ops (ke CS)) b = Ok s ->
    k_deser_sk (ke CS) (slice b (h_len (hash CS)) (k_Nsk (ke CS))) = Some (kp_sk (ss_keypair s)) /\
    k_deser_sk (ke CS) (skipn (h_len (hash CS) + k_Nsk (ke CS)) b) = Some (kp_sk (ss_fake_keypair s)) /\
    kp_pk (ss_keypair s) = k_pub (ke CS) (kp_sk (ss_keypair s)).
  Proof.
    unfold server_setup_deserialize, keypair_from_private_key_slice, sk_deserialize.
    cbn [private_key_ops s_deser s_pub]. intros H. inv_res. inv_size. subst. auto.
  Qed.

  Theorem client_login_fields_valid b s :
    client_login_deserialize CS b = Ok s ->
    o_deser_s (oprf CS) (firstn (o_Nok (oprf CS)) b) = Some (cl_blind s) /\
    (exists kb, k_deser_sk (ke CS) kb = Some (k1s_client_e_sk (cl_ke1_state s)) /\
                kb = firstn (k_Nsk (ke CS)) (skipn (o_Nok (oprf CS) + (o_Noe (oprf CS) + ke1_message_len CS)) b)) /\
    o_eqb (oprf CS) (o_identity (oprf CS)) (cq_blinded (cl_request s)) = false.
  Proof.
    unfold client_login_deserialize, ke1_state_deserialize, sk_deserialize. intros H. inv_res. inv_size. subst.
    apply scalar_validated in Hb1. rewrite firstn_firstn, Nat.min_id in Hb1.
    apply credential_request_fields_valid in Hb2 as (_ & Hid & _). eauto.
  Qed.
End FV.
