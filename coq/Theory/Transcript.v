(* C05 / C12: the byte strings that bind identities, context, credential
   identifier and password are injective encodings of their components (pure
   list arithmetic, no hash involved), and inputs that do not fit their 2-byte
   length prefix are refused, never wrapped or truncated. *)
From Coq Require Import List Arith NArith.
From OKE Require Import Bytes Suite Generated Voprf Messages Envelope TripleDH Opaque.
From OKE Require Import ListLemmas BytesLemmas ResultLemmas Steps.

Definition effective (id : option bytes) (pk : bytes) : bytes := match id with Some x => x | None => pk end.

Section T.
  Context {E Sc Pk Sk : Type}.
  Variable CS : Suite E Sc Pk Sk.

  Lemma bytestrings_Ok ids cpk spk u s :
    bytestrings_from_identifiers ids cpk spk = Ok (u, s) ->
    lenprefix 2 (effective (id_client ids) cpk) = Some u /\ lenprefix 2 (effective (id_server ids) spk) = Some s.
  Proof. unfold bytestrings_from_identifiers, effective. intros H. inv_res. inversion H; subst. auto. Qed.

  (* an absent identity is exactly the explicit spelling of that party's public key *)
  Lemma default_identity_spelling ids cpk spk :
    bytestrings_from_identifiers ids cpk spk =
    bytestrings_from_identifiers {| id_client := Some (effective (id_client ids) cpk);
                                    id_server := Some (effective (id_server ids) spk) |} cpk spk.
  Proof. reflexivity. Qed.

  (* refusal: an effective identity that does not fit 2 bytes of length is an error *)
  Lemma bytestrings_refuses_client ids cpk spk :
    (65536 <= N.of_nat (length (effective (id_client ids) cpk)))%N ->
    bytestrings_from_identifiers ids cpk spk = Err ESerialization.
  Proof.
    intros H. unfold bytestrings_from_identifiers. fold (effective (id_client ids) cpk).
    apply lenprefix2_refuses in H. now rewrite H.
  Qed.

  Lemma bytestrings_not_Ok_server ids cpk spk r :
    (65536 <= N.of_nat (length (effective (id_server ids) spk)))%N ->
    bytestrings_from_identifiers ids cpk spk <> Ok r.
  Proof.
    intros H Heq. destruct r as [u s]. apply bytestrings_Ok in Heq as [_ Hs].
    apply lenprefix2_refuses in H. congruence.
  Qed.

  Lemma bytestrings_not_Ok_client ids cpk spk r :
    (65536 <= N.of_nat (length (effective (id_client ids) cpk)))%N ->
    bytestrings_from_identifiers ids cpk spk <> Ok r.
  Proof. intros H. rewrite (bytestrings_refuses_client _ _ _ H). discriminate. Qed.

  (* whether the identities encode depends on the server key only through its length *)
  Lemma bytestrings_Ok_length {ids cpk spk spk' r} :
    length spk = length spk' -> bytestrings_from_identifiers ids cpk spk = Ok r ->
    exists r', bytestrings_from_identifiers ids cpk spk' = Ok r'.
  Proof.
    unfold bytestrings_from_identifiers. intros Hl H. apply bind_Ok in H as (u & Hu & H). rewrite Hu.
    apply bind_Ok in H as (s & Hs & _). apply of_option_Ok in Hs.
    destruct (id_server ids) as [sv|]; [rewrite Hs; cbn; eauto|].
    destruct (lenprefix 2 spk') eqn:Hp; [cbn; eauto|].
    apply lenprefix2_refuses in Hp. rewrite <- Hl in Hp. apply lenprefix2_refuses in Hp. congruence.
  Qed.

  Lemma preamble_Ok {context u req s l2 n e p} :
    preamble context u req s l2 n e = Ok p ->
    exists c, lenprefix 2 context = Some c /\ p = STR_CONTEXT ++ c ++ u ++ req ++ s ++ l2 ++ n ++ e.
  Proof. unfold preamble. intros H. inv_res. eauto. Qed.

  Lemma preamble_refuses_context context u req s l2 n e :
    (65536 <= N.of_nat (length context))%N -> preamble context u req s l2 n e = Err ESerialization.
  Proof. intros H. unfold preamble. apply lenprefix2_refuses in H. now rewrite H. Qed.

  (* equal transcripts have equal components: context, both identities, the request, the
     response without MAC, the server nonce and the server ephemeral key.  The fixed-length
     fields are compared under equal lengths (they have the suite's lengths on both sides). *)
  Theorem preamble_injective
          context iu req is_ l2 n e context' iu' req' is_' l2' n' e' u s u' s' p :
    lenprefix 2 iu = Some u -> lenprefix 2 is_ = Some s ->
    lenprefix 2 iu' = Some u' -> lenprefix 2 is_' = Some s' ->
    length req = length req' -> length l2 = length l2' -> length n = length n' ->
    preamble context u req s l2 n e = Ok p ->
    preamble context' u' req' s' l2' n' e' = Ok p ->
    context = context' /\ iu = iu' /\ req = req' /\ is_ = is_' /\ l2 = l2' /\ n = n' /\ e = e'.
  Proof.
    intros Hu Hs Hu' Hs' Lr Ll Ln H H'.
    apply preamble_Ok in H as (c & Hc & ->). apply preamble_Ok in H' as (c' & Hc' & H').
    apply app_inv_head in H'.
    destruct (lenprefix_inj Hc Hc' H') as [-> H1].
    destruct (lenprefix_inj Hu Hu' H1) as [-> H2].
    apply app_eq_len in H2 as [-> H3]; [|assumption].
    destruct (lenprefix_inj Hs Hs' H3) as [-> H4].
    apply app_eq_len in H4 as [-> H5]; [|assumption].
    apply app_eq_len in H5 as [-> ->]; [|assumption].
    repeat split; reflexivity.
  Qed.

  (* moving bytes between context, client identity and server identity changes the transcript *)
  Corollary preamble_no_boundary_shift context iu is_ context' iu' is_' req l2 n e u s u' s' p p' :
    lenprefix 2 iu = Some u -> lenprefix 2 is_ = Some s ->
    lenprefix 2 iu' = Some u' -> lenprefix 2 is_' = Some s' ->
    preamble context u req s l2 n e = Ok p ->
    preamble context' u' req s' l2 n e = Ok p' ->
    (context, iu, is_) <> (context', iu', is_') -> p <> p'.
  Proof.
    intros Hu Hs Hu' Hs' H H' Hne ->.
    destruct (preamble_injective _ _ _ _ _ _ _ _ _ _ _ _ _ _ _ _ _ _ _ Hu Hs Hu' Hs' eq_refl eq_refl eq_refl H H')
      as (-> & -> & _ & -> & _).
    now apply Hne.
  Qed.

  Theorem aad_injective nonce iu is_ spk nonce' iu' is_' spk' u s u' s' :
    lenprefix 2 iu = Some u -> lenprefix 2 is_ = Some s ->
    lenprefix 2 iu' = Some u' -> lenprefix 2 is_' = Some s' ->
    length nonce = length nonce' -> length spk = length spk' ->
    nonce ++ construct_aad u s spk = nonce' ++ construct_aad u' s' spk' ->
    nonce = nonce' /\ spk = spk' /\ is_ = is_' /\ iu = iu'.
  Proof.
    unfold construct_aad. intros Hu Hs Hu' Hs' Ln Lk H.
    apply app_eq_len in H as [-> H]; [|assumption].
    apply app_eq_len in H as [-> H]; [|assumption].
    destruct (lenprefix_inj Hs Hs' H) as [-> <-].
    now rewrite (lenprefix_inj_nil Hu Hu').
  Qed.

  Theorem finalize_input_injective input input' l l' ser ser' :
    i2osp_nat 2 (length input) = Some l -> i2osp_nat 2 (length input') = Some l' ->
    length ser = length ser' ->
    l ++ input ++ be_bytes 2 (N.of_nat (o_Noe (oprf CS))) ++ ser ++ Labels.STR_FINALIZE =
    l' ++ input' ++ be_bytes 2 (N.of_nat (o_Noe (oprf CS))) ++ ser' ++ Labels.STR_FINALIZE ->
    input = input' /\ ser = ser'.
  Proof.
    intros Hl Hl' Ls H.
    assert (Hp : lenprefix 2 input = Some (l ++ input)) by (unfold lenprefix; now rewrite Hl).
    assert (Hp' : lenprefix 2 input' = Some (l' ++ input')) by (unfold lenprefix; now rewrite Hl').
    rewrite (app_assoc l), (app_assoc l') in H.
    destruct (lenprefix_inj Hp Hp' H) as [-> H1].
    apply app_inv_head in H1. apply app_eq_len in H1 as [-> _]; auto.
  Qed.

  Lemma finalize_refuses_long_input blind input ev :
    (65536 <= N.of_nat (length input))%N ->
    voprf_finalize (hash CS) (oprf CS) blind input ev = Err (ELibrary (LOprfError OInput)).
  Proof. intros H. unfold voprf_finalize. apply i2osp2_refuses in H. now rewrite H. Qed.

  Theorem oprf_key_info_injective cred cred' : cred ++ STR_OPRF_KEY = cred' ++ STR_OPRF_KEY -> cred = cred'.
  Proof. apply app_inv_tail. Qed.

  (* C12, refusal at the API steps.  Over-long context: the client's key-exchange step returns no value *)
  Theorem generate_ke3_refuses_context l2 ke2 st req spk csk u s context :
    (65536 <= N.of_nat (length context))%N ->
    generate_ke3 CS l2 ke2 st req spk csk u s context = Err ESerialization.
  Proof. intros H. unfold generate_ke3. now rewrite preamble_refuses_context. Qed.

  Theorem client_login_finish_refuses_long_password st pw r ctx ids ksf :
    (65536 <= N.of_nat (length pw))%N ->
    o_eqb (oprf CS) (cq_blinded (cl_request st)) (cr_eval r) = false ->
    client_login_finish CS st pw r ctx ids ksf = Err (ELibrary (LOprfError OInput)).
  Proof.
    intros H Hr. unfold client_login_finish, get_password_derived_key. rewrite Hr.
    now rewrite finalize_refuses_long_input.
  Qed.

  Theorem client_registration_finish_refuses_long_password st tape pw r ids ksf :
    (65536 <= N.of_nat (length pw))%N ->
    o_eqb (oprf CS) (crs_blinded st) (rr_eval r) = false ->
    client_registration_finish CS st tape pw r ids ksf = Err (ELibrary (LOprfError OInput)).
  Proof.
    intros H Hr. unfold client_registration_finish, get_password_derived_key. rewrite Hr.
    now rewrite finalize_refuses_long_input.
  Qed.

  Theorem envelope_seal_refuses_long_identity tape rpwd spk ids r :
    (65536 <= N.of_nat (length (effective (id_server ids) (k_ser_pk (ke CS) spk))))%N ->
    envelope_seal CS tape rpwd spk ids <> Ok r.
  Proof.
    intros H Heq. destruct r as [[[env cpk] ek] rest].
    apply envelope_seal_Ok in Heq as (kp & u & s & ak & _ & _ & _ & _ & _ & Hus & _).
    exact (bytestrings_not_Ok_server _ _ _ _ H Hus).
  Qed.
End T.
