(* Encode-then-decode is the identity on well-formed values, for the eleven
   native encodings (C10, C13). "Well-formed" is what the API produces: byte
   fields of their fixed lengths and group elements / scalars / keys that
   survive their own element-level round trip.
   Each proof discharges the size check, after which every slice the decoder takes
   is a slice of the concatenation itself and reduces to one of its parts; then the
   parts' own round trips are rewritten in. *)
From Coq Require Import List Arith Lia.
From OKE Require Import Bytes Suite Generated Voprf Messages ListLemmas BytesLemmas Codecs.

Lemma css_eq b n : length b = n -> check_slice_size b n = Ok b.
Proof. intros <-. unfold check_slice_size. now rewrite Nat.eqb_refl. Qed.
Lemma cssa_le b n : n <= length b -> check_slice_size_atleast b n = Ok b.
Proof. intros H. unfold check_slice_size_atleast. destruct (Nat.ltb_spec (length b) n); [lia|reflexivity]. Qed.

Section RT.
  Context {E Sc Pk Sk : Type}.
  Variable CS : Suite E Sc Pk Sk.
  Let O := oprf CS.
  Let K := ke CS.
  Let Nh := h_len (hash CS).
  Let Nn := KE_NONCE_LEN.

  Definition wf_elem (e : E) : Prop :=
    o_deser_e O (o_ser_e O e) = Some e /\ length (o_ser_e O e) = o_Noe O.
  Definition wf_elem_nonid (e : E) : Prop := wf_elem e /\ o_eqb O (o_identity O) e = false.
  Definition wf_scalar (s : Sc) : Prop :=
    o_deser_s O (o_ser_s O s) = Some s /\ length (o_ser_s O s) = o_Nok O.
  Definition wf_pk (p : Pk) : Prop :=
    k_deser_pk K (k_ser_pk K p) = Some p /\ length (k_ser_pk K p) = k_Npk K.
  Definition wf_sk (s : Sk) : Prop :=
    k_deser_sk K (k_ser_sk K s) = Some s /\ length (k_ser_sk K s) = k_Nsk K.

  Definition wf_envelope (e : Envelope) : Prop :=
    env_internal e = true /\ length (env_nonce e) = ENVELOPE_NONCE_LEN /\ length (env_hmac e) = Nh.
  Definition wf_ke1 (m : Ke1Message Pk) : Prop := length (k1_nonce m) = Nn /\ wf_pk (k1_client_e_pk m).
  Definition wf_ke2 (m : Ke2Message Pk) : Prop :=
    length (k2_nonce m) = Nn /\ wf_pk (k2_server_e_pk m) /\ length (k2_mac m) = Nh.
  Definition wf_masked (m : MaskedResponse) : Prop :=
    length (mr_nonce m) = Nn /\ length (mr_hash m) = Nh /\ length (mr_pk m) = k_Npk K.

  (* the section's abbreviations get in lia's way: spell them out, in the well-formedness predicates too *)
  Ltac spell :=
    unfold wf_elem_nonid, wf_ke1, wf_ke2, wf_masked, wf_envelope, wf_elem, wf_scalar, wf_pk, wf_sk, O, K, Nh, Nn in *.

  Lemma deserialize_element_rt e : wf_elem e -> deserialize_element CS (o_ser_e O e) = Ok e.
  Proof.
    spell. intros [Hd Hl]. unfold deserialize_element, voprf_deser_elem.
    rewrite Hl, Nat.ltb_irrefl. rewrite firstn_all2 by lia. rewrite Hd. cbn [of_option bind].
    now rewrite bytes_eqb_refl.
  Qed.

  Lemma pk_deserialize_rt p : wf_pk p -> pk_deserialize CS (k_ser_pk K p) = Ok p.
  Proof. spell. intros [Hd _]. unfold pk_deserialize. now rewrite Hd. Qed.

  Lemma sk_deserialize_rt s : wf_sk s -> sk_deserialize CS (k_ser_sk K s) = Ok s.
  Proof. spell. intros [Hd _]. unfold sk_deserialize. now rewrite Hd. Qed.

  Lemma voprf_deser_scalar_rt s : wf_scalar s -> voprf_deser_scalar O (o_ser_s O s) = Ok s.
  Proof.
    intros [Hd Hl]. unfold voprf_deser_scalar. rewrite Hl, Nat.ltb_irrefl.
    rewrite firstn_all2 by lia. now rewrite Hd.
  Qed.

  Lemma envelope_rt e : wf_envelope e -> envelope_deserialize CS (envelope_serialize e) = Ok e.
  Proof.
    intros (Hi & Hn & Hh). unfold envelope_deserialize, envelope_serialize.
    rewrite app_length, Hn. destruct (Nat.ltb_spec (ENVELOPE_NONCE_LEN + length (env_hmac e)) ENVELOPE_NONCE_LEN); [lia|].
    rewrite skipn_app_exact', firstn_app_exact' by lia. rewrite css_eq by exact Hh.
    destruct e; cbn in *; now subst.
  Qed.

  Theorem registration_request_rt m :
    wf_elem (rq_blinded m) -> registration_request_deserialize CS (registration_request_serialize CS m) = Ok m.
  Proof.
    intros H. unfold registration_request_deserialize, registration_request_serialize.
    rewrite deserialize_element_rt by assumption. now destruct m.
  Qed.

  Theorem registration_response_rt m :
    wf_elem (rr_eval m) -> wf_pk (rr_server_s_pk m) ->
    registration_response_deserialize CS (registration_response_serialize CS m) = Ok m.
  Proof.
    spell. intros [Hd Hl] [Hdp Hlp]. unfold registration_response_deserialize, registration_response_serialize.
    rewrite css_eq by (rewrite app_length; lia). cbn [bind].
    rewrite skipn_app_exact', firstn_app_exact' by lia.
    rewrite pk_deserialize_rt, deserialize_element_rt by (split; assumption). now destruct m.
  Qed.

  Theorem registration_upload_rt m :
    wf_envelope (ru_envelope m) -> length (ru_masking_key m) = Nh -> wf_pk (ru_client_s_pk m) ->
    registration_upload_deserialize CS (registration_upload_serialize CS m) = Ok m.
  Proof.
    spell. intros He Hm [Hdp Hlp]. unfold registration_upload_deserialize, registration_upload_serialize, slice.
    rewrite cssa_le by (rewrite !app_length; lia). cbn [bind].
    rewrite <- skipn_skipn', firstn_app_exact', !skipn_app_exact', firstn_app_exact' by lia.
    rewrite envelope_rt by assumption. rewrite pk_deserialize_rt by (split; assumption). now destruct m.
  Qed.

  Lemma ke1_message_rt m : wf_ke1 m -> ke1_message_deserialize CS (ke1_message_serialize CS m) = Ok m.
  Proof.
    spell. intros [Hn [Hd Hl]]. unfold ke1_message_deserialize, ke1_message_serialize.
    rewrite css_eq by (rewrite app_length; lia). cbn [bind].
    rewrite skipn_app_exact', firstn_app_exact' by lia.
    rewrite pk_deserialize_rt by (split; assumption). now destruct m.
  Qed.

  Lemma ke1_message_ser_length {m} : wf_ke1 m -> length (ke1_message_serialize CS m) = ke1_message_len CS.
  Proof. spell. intros [Hn [_ Hl]]. unfold ke1_message_serialize, ke1_message_len. rewrite app_length. lia. Qed.

  Theorem credential_request_rt m :
    wf_elem_nonid (cq_blinded m) -> wf_ke1 (cq_ke1 m) ->
    credential_request_deserialize CS (credential_request_serialize CS m) = Ok m.
  Proof.
    spell. intros [[Hd Hl] Hid] Hk. unfold credential_request_deserialize, credential_request_serialize.
    rewrite cssa_le by (rewrite app_length; lia). cbn [bind].
    rewrite firstn_app_exact', skipn_app_exact' by lia.
    rewrite deserialize_element_rt by (split; assumption). cbn [bind].
    rewrite Hid, ke1_message_rt by assumption. now destruct m.
  Qed.

  Lemma ke2_message_rt m : wf_ke2 m -> ke2_message_deserialize CS (ke2_message_serialize CS m) = Ok m.
  Proof.
    spell. intros (Hn & [Hd Hl] & Hm). unfold ke2_message_deserialize, ke2_message_serialize.
    rewrite cssa_le by (rewrite !app_length; lia). cbn [bind].
    rewrite skipn_app_exact', firstn_app_exact' by lia.
    rewrite cssa_le by (rewrite !app_length; lia). cbn [bind].
    rewrite skipn_app_exact', firstn_app_exact' by lia.
    rewrite css_eq by exact Hm. rewrite pk_deserialize_rt by (split; assumption). now destruct m.
  Qed.

  Lemma masked_response_rt m : wf_masked m -> masked_response_deserialize CS (masked_response_serialize m) = m.
  Proof.
    spell. intros (Hn & Hh & Hp). unfold masked_response_deserialize, masked_response_serialize, slice.
    rewrite <- skipn_skipn', firstn_app_exact', !skipn_app_exact', firstn_app_exact' by lia.
    rewrite firstn_all2 by lia. now destruct m.
  Qed.

  Theorem credential_response_rt m :
    wf_elem_nonid (cr_eval m) -> length (cr_masking_nonce m) = Nn -> wf_masked (cr_masked m) -> wf_ke2 (cr_ke2 m) ->
    credential_response_deserialize CS (credential_response_serialize CS m) = Ok m.
  Proof.
    spell. intros [[Hd Hl] Hid] Hn Hm Hk.
    pose proof nonce_lens_eq as Hne.
    assert (Hml : length (masked_response_serialize (cr_masked m)) = k_Npk (ke CS) + envelope_len CS).
    { unfold masked_response_serialize, envelope_len. rewrite !app_length. lia. }
    assert (Hkl : length (ke2_message_serialize CS (cr_ke2 m)) = ke2_message_len CS).
    { unfold ke2_message_serialize, ke2_message_len. rewrite !app_length. lia. }
    unfold credential_response_deserialize, credential_response_serialize, slice.
    rewrite cssa_le by (rewrite !app_length; lia). cbn [bind].
    (* the masked response's length is itself a sum: named, so that only the offsets of the four parts are split *)
    set (mrl := k_Npk (ke CS) + envelope_len CS) in *.
    rewrite <- !skipn_skipn'. rewrite !skipn_app_exact', !firstn_app_exact' by easy.
    rewrite deserialize_element_rt by (split; assumption). cbn [bind].
    rewrite Hid, masked_response_rt, ke2_message_rt by assumption. now destruct m.
  Qed.

  Theorem credential_finalization_rt m :
    length (cf_mac m) = Nh -> credential_finalization_deserialize CS (credential_finalization_serialize m) = Ok m.
  Proof.
    intros H. unfold credential_finalization_deserialize, credential_finalization_serialize.
    rewrite css_eq by exact H. now destruct m.
  Qed.

  Theorem server_login_rt s :
    length (sl_km3 s) = Nh -> length (sl_hashed_transcript s) = Nh -> length (sl_session_key s) = Nh ->
    server_login_deserialize CS (server_login_serialize s) = Ok s.
  Proof.
    intros H1 H2 H3. unfold server_login_deserialize, server_login_serialize, slice.
    rewrite css_eq by (rewrite !app_length; lia). cbn [bind].
    rewrite firstn_app_exact', skipn_app_exact', firstn_app_exact' by lia.
    rewrite app_assoc, skipn_app_exact' by (rewrite app_length; lia).
    rewrite firstn_all2 by lia. now destruct s.
  Qed.

  Theorem client_registration_rt s :
    wf_scalar (crs_blind s) -> wf_elem (crs_blinded s) ->
    client_registration_deserialize CS (client_registration_serialize CS s) = Ok s.
  Proof.
    spell. intros [Hds Hls] [Hde Hle]. unfold client_registration_deserialize, client_registration_serialize.
    rewrite css_eq by (rewrite app_length; lia). cbn [bind].
    rewrite firstn_app_exact', skipn_app_exact' by lia.
    rewrite voprf_deser_scalar_rt, deserialize_element_rt by (split; assumption). now destruct s.
  Qed.

  Lemma ke1_state_rt s :
    wf_sk (k1s_client_e_sk s) -> length (k1s_nonce s) = Nn ->
    ke1_state_deserialize CS (ke1_state_serialize CS s) = Ok s.
  Proof.
    spell. intros [Hd Hl] Hn. unfold ke1_state_deserialize, ke1_state_serialize, slice.
    rewrite cssa_le by (rewrite app_length; lia). cbn [bind].
    rewrite firstn_app_exact', skipn_app_exact' by lia.
    rewrite sk_deserialize_rt by (split; assumption). rewrite firstn_all2 by lia. now destruct s.
  Qed.

  Theorem client_login_rt s :
    wf_scalar (cl_blind s) -> wf_elem_nonid (cq_blinded (cl_request s)) -> wf_ke1 (cq_ke1 (cl_request s)) ->
    wf_sk (k1s_client_e_sk (cl_ke1_state s)) -> length (k1s_nonce (cl_ke1_state s)) = Nn ->
    client_login_deserialize CS (client_login_serialize CS s) = Ok s.
  Proof.
    spell. intros [Hds Hls] He Hk Hsk Hn.
    pose proof (ke1_message_ser_length Hk) as Hkl.
    assert (Hrl : length (credential_request_serialize CS (cl_request s)) = o_Noe (oprf CS) + ke1_message_len CS).
    { unfold credential_request_serialize. rewrite app_length. lia. }
    assert (Hsl : length (ke1_state_serialize CS (cl_ke1_state s)) = ke1_state_len CS).
    { unfold ke1_state_serialize, ke1_state_len. rewrite app_length. lia. }
    unfold client_login_deserialize, client_login_serialize, slice.
    rewrite css_eq by (rewrite !app_length; lia). cbn [bind].
    rewrite <- skipn_skipn', firstn_app_exact', !skipn_app_exact', firstn_app_exact' by lia.
    rewrite ke1_state_rt by assumption. rewrite voprf_deser_scalar_rt by (split; assumption).
    rewrite credential_request_rt by assumption. now destruct s.
  Qed.

  Theorem server_setup_rt s :
    length (ss_oprf_seed s) = Nh -> wf_sk (kp_sk (ss_keypair s)) -> wf_sk (kp_sk (ss_fake_keypair s)) ->
    kp_pk (ss_keypair s) = k_pub K (kp_sk (ss_keypair s)) ->
    kp_pk (ss_fake_keypair s) = k_pub K (kp_sk (ss_fake_keypair s)) ->
    server_setup_deserialize CS (private_key_ops K) (server_setup_serialize CS (private_key_ops K) s) = Ok s.
  Proof.
    spell. intros Hs [Hd1 Hl1] [Hd2 Hl2] Hp1 Hp2.
    unfold server_setup_deserialize, server_setup_serialize, keypair_from_private_key_slice, slice.
    cbn [private_key_ops s_deser s_pub s_ser].
    rewrite css_eq by (rewrite !app_length; lia). cbn [bind].
    rewrite <- skipn_skipn', firstn_app_exact', !skipn_app_exact', firstn_app_exact' by lia.
    rewrite Hd1, sk_deserialize_rt by (split; assumption).
    destruct s as [seed [pk1 sk1] [pk2 sk2]]; cbn in *. now subst.
  Qed.
End RT.
