(* Facts about the byte-string layer of the model (Model/Bytes.v): byte <-> N,
   I2OSP / OS2IP round trips, refusal of I2OSP, injectivity of length-prefixed
   concatenation, decidable equality. *)
From Coq Require Import List NArith Arith Lia Bool.
From Coq Require Strings.Byte.
From OKE Require Import Bytes ListLemmas.
Import ListNotations.

Lemma b2n_lt b : (b2n b < 256)%N.
Proof. unfold b2n. pose proof (Strings.Byte.to_N_bounded b). lia. Qed.

Lemma n2b_b2n b : n2b (b2n b) = b.
Proof.
  unfold n2b. rewrite N.mod_small by apply b2n_lt.
  unfold b2n. now rewrite Strings.Byte.of_to_N.
Qed.

Lemma b2n_n2b_mod n : b2n (n2b n) = (n mod 256)%N.
Proof.
  unfold n2b. assert (H : (n mod 256 < 256)%N) by (apply N.mod_lt; lia).
  destruct (Strings.Byte.of_N (n mod 256)) as [b|] eqn:Hb.
  - unfold b2n. now apply Strings.Byte.to_of_N.
  - apply Strings.Byte.of_N_None_iff in Hb. lia.
Qed.

Lemma b2n_n2b n : (n < 256)%N -> b2n (n2b n) = n.
Proof. rewrite b2n_n2b_mod. apply N.mod_small. Qed.

Lemma b2n_inj a b : b2n a = b2n b -> a = b.
Proof. intros H. rewrite <- (n2b_b2n a), <- (n2b_b2n b). now rewrite H. Qed.

Lemma byte_eqb_eq a b : byte_eqb a b = true <-> a = b.
Proof. unfold byte_eqb. split; intros H; [now apply Byte.byte_dec_bl | now apply Byte.byte_dec_lb]. Qed.

Lemma bytes_eqb_eq a b : bytes_eqb a b = true <-> a = b.
Proof.
  revert b. induction a as [|x a IH]; intros [|y b]; cbn [bytes_eqb]; [easy.. |].
  rewrite andb_true_iff, byte_eqb_eq, IH. split; [intros [-> ->] | intros [= -> ->]]; auto.
Qed.

Lemma bytes_eqb_refl a : bytes_eqb a a = true.
Proof. now apply bytes_eqb_eq. Qed.

Lemma bytes_eqb_sym a b : bytes_eqb a b = bytes_eqb b a.
Proof. apply eq_true_iff_eq. rewrite !bytes_eqb_eq. split; congruence. Qed.

Lemma bytes_eqb_neq a b : bytes_eqb a b = false <-> a <> b.
Proof. rewrite <- bytes_eqb_eq. symmetry. apply not_true_iff_false. Qed.

Lemma pow256_S n : (256 ^ N.of_nat (S n) = 256 * 256 ^ N.of_nat n)%N.
Proof. now rewrite Nat2N.inj_succ, N.pow_succ_r'. Qed.
Lemma pow256_1 : (256 ^ N.of_nat 1 = 256)%N.
Proof. reflexivity. Qed.
Lemma pow256_0 : (256 ^ N.of_nat 0 = 1)%N.
Proof. reflexivity. Qed.

Lemma be_bytes_length len n : length (be_bytes len n) = len.
Proof. revert n. induction len as [|l IH]; intros n; cbn; [reflexivity|]. rewrite app_length, IH. cbn. lia. Qed.

Lemma os2ip_be_app a b :
  os2ip_be (a ++ b) = (os2ip_be a * 256 ^ N.of_nat (length b) + os2ip_be b)%N.
Proof.
  unfold os2ip_be. revert a. induction b as [|x b IH] using rev_ind; intros a.
  - rewrite app_nil_r. cbn [length fold_left]. rewrite pow256_0. lia.
  - rewrite app_assoc, !fold_left_app. cbn [fold_left]. rewrite <- fold_left_app, IH.
    rewrite app_length. rewrite Nat.add_1_r, pow256_S. lia.
Qed.

Lemma os2ip_be_single x : os2ip_be [x] = b2n x.
Proof. unfold os2ip_be. cbn. lia. Qed.

Lemma os2ip_be_lt b : (os2ip_be b < 256 ^ N.of_nat (length b))%N.
Proof.
  induction b as [|x b IH] using rev_ind.
  - cbn [length]. rewrite pow256_0. unfold os2ip_be. cbn. lia.
  - rewrite os2ip_be_app, os2ip_be_single, app_length. cbn [length].
    rewrite pow256_1, Nat.add_1_r, pow256_S.
    pose proof (b2n_lt x). nia.
Qed.

Lemma os2ip_be_bytes len n : os2ip_be (be_bytes len n) = (n mod 256 ^ N.of_nat len)%N.
Proof.
  revert n. induction len as [|l IH]; intros n.
  - rewrite pow256_0, N.mod_1_r. reflexivity.
  - cbn [be_bytes]. rewrite os2ip_be_app, os2ip_be_single, IH. cbn [length].
    rewrite pow256_1, b2n_n2b_mod, pow256_S.
    rewrite (N.mod_mul_r n 256) by lia. lia.
Qed.

Lemma be_bytes_os2ip b : be_bytes (length b) (os2ip_be b) = b.
Proof.
  induction b as [|x b IH] using rev_ind; [reflexivity|].
  rewrite app_length. rewrite Nat.add_1_r. cbn [be_bytes].
  rewrite os2ip_be_app, os2ip_be_single. cbn [length]. rewrite pow256_1.
  pose proof (b2n_lt x) as Hx.
  replace ((os2ip_be b * 256 + b2n x) / 256)%N with (os2ip_be b).
  2:{ symmetry. rewrite N.div_add_l by lia. rewrite N.div_small by assumption. lia. }
  rewrite IH. f_equal. f_equal.
  apply b2n_inj. rewrite b2n_n2b_mod.
  rewrite N.add_comm, N.mod_add by lia. now rewrite N.mod_small.
Qed.

Lemma be_bytes_inj len n m :
  (n < 256 ^ N.of_nat len)%N -> (m < 256 ^ N.of_nat len)%N -> be_bytes len n = be_bytes len m -> n = m.
Proof.
  intros Hn Hm H. apply (f_equal os2ip_be) in H. rewrite !os2ip_be_bytes in H.
  now rewrite !N.mod_small in H by assumption.
Qed.

(* little-endian: the big-endian facts, reversed *)
Lemma le_bytes_rev len n : le_bytes len n = rev (be_bytes len n).
Proof.
  revert n. induction len as [|l IH]; intros n; cbn [le_bytes be_bytes]; [reflexivity|].
  now rewrite rev_unit, IH.
Qed.

Lemma os2ip_le_rev b : os2ip_le b = os2ip_be (rev b).
Proof.
  induction b as [|x b IH]; [reflexivity|].
  cbn [rev]. rewrite os2ip_be_app, os2ip_be_single, <- IH. cbn [length]. rewrite pow256_1.
  unfold os2ip_le. cbn [fold_right]. lia.
Qed.

Lemma le_bytes_length len n : length (le_bytes len n) = len.
Proof. now rewrite le_bytes_rev, rev_length, be_bytes_length. Qed.

Lemma os2ip_le_lt b : (os2ip_le b < 256 ^ N.of_nat (length b))%N.
Proof. rewrite os2ip_le_rev, <- rev_length. apply os2ip_be_lt. Qed.

Lemma os2ip_le_bytes len n : os2ip_le (le_bytes len n) = (n mod 256 ^ N.of_nat len)%N.
Proof. now rewrite os2ip_le_rev, le_bytes_rev, rev_involutive, os2ip_be_bytes. Qed.

Lemma le_bytes_os2ip b : le_bytes (length b) (os2ip_le b) = b.
Proof. now rewrite le_bytes_rev, os2ip_le_rev, <- rev_length, be_bytes_os2ip, rev_involutive. Qed.

Lemma i2osp_Some len n p :
  i2osp len n = Some p -> length p = len /\ os2ip_be p = n /\ (n < 256 ^ N.of_nat len)%N.
Proof.
  unfold i2osp. destruct (N.ltb_spec n (256 ^ N.of_nat len)) as [H|H]; [|discriminate].
  intros [= <-]. split; [apply be_bytes_length|]. split; [|assumption].
  rewrite os2ip_be_bytes. now apply N.mod_small.
Qed.

(* I2OSP refuses exactly the values that do not fit: never a wrapped encoding *)
Lemma i2osp_None len n : i2osp len n = None <-> (256 ^ N.of_nat len <= n)%N.
Proof. unfold i2osp. destruct (N.ltb_spec n (256 ^ N.of_nat len)); split; (easy || lia). Qed.

Lemma i2osp_inj {len n m p} : i2osp len n = Some p -> i2osp len m = Some p -> n = m.
Proof. intros H1 H2. apply i2osp_Some in H1 as (_ & <- & _). apply i2osp_Some in H2 as (_ & <- & _). reflexivity. Qed.

Lemma i2osp2_refuses n : i2osp_nat 2 n = None <-> (65536 <= N.of_nat n)%N.
Proof. unfold i2osp_nat. rewrite i2osp_None. reflexivity. Qed.

Lemma i2osp1_refuses n : i2osp_nat 1 n = None <-> 256 <= n.
Proof. unfold i2osp_nat. rewrite i2osp_None. lia. Qed.

Lemma lenprefix_Some l x px :
  lenprefix l x = Some px ->
  exists p, i2osp_nat l (length x) = Some p /\ px = p ++ x /\ length p = l.
Proof.
  unfold lenprefix. destruct (i2osp_nat l (length x)) as [p|] eqn:E; [|discriminate].
  intros [= <-]. exists p. repeat split; auto. unfold i2osp_nat in E. now apply i2osp_Some in E.
Qed.

Lemma lenprefix_None l x : lenprefix l x = None <-> (256 ^ N.of_nat l <= N.of_nat (length x))%N.
Proof. unfold lenprefix, i2osp_nat. rewrite <- i2osp_None. now destruct (i2osp l _). Qed.

Lemma lenprefix2_refuses x : lenprefix 2 x = None <-> (65536 <= N.of_nat (length x))%N.
Proof. rewrite lenprefix_None. reflexivity. Qed.

Lemma lenprefix_length l x px : lenprefix l x = Some px -> length px = l + length x.
Proof. intros H. apply lenprefix_Some in H as (p & _ & -> & Hl). rewrite app_length. lia. Qed.

(* The key parse lemma: a length-prefixed field followed by anything determines
   the field and the rest.  No hash is involved. *)
Lemma lenprefix_inj {l x y px py r1 r2} :
  lenprefix l x = Some px -> lenprefix l y = Some py ->
  px ++ r1 = py ++ r2 -> x = y /\ r1 = r2.
Proof.
  intros Hx Hy H.
  apply lenprefix_Some in Hx as (p & Hp & -> & Hlp).
  apply lenprefix_Some in Hy as (q & Hq & -> & Hlq).
  rewrite <- !app_assoc in H.
  apply app_eq_len in H as [<- H]; [|lia].
  apply app_eq_len in H; [exact H|]. apply Nat2N.inj. exact (i2osp_inj Hp Hq).
Qed.

Lemma lenprefix_inj_nil {l x y px} : lenprefix l x = Some px -> lenprefix l y = Some px -> x = y.
Proof.
  intros Hx Hy. destruct (lenprefix_inj (r1 := []) (r2 := []) Hx Hy eq_refl) as [H _]. exact H.
Qed.

(* the xor of two numbers is no longer than the longer of them: log2 (lxor x y) <= max (log2 x) (log2 y) <= log2 255 *)
Lemma lxor_lt8 x y : (x < 256 -> y < 256 -> N.lxor x y < 256)%N.
Proof.
  intros Hx Hy. apply N.log2_lt_cancel. eapply N.le_lt_trans; [apply N.log2_lxor|].
  change (N.log2 256) with (N.succ (N.log2 255)). apply N.lt_succ_r, N.max_lub; apply N.log2_le_mono; lia.
Qed.

Lemma b2n_xorb8 a b : b2n (xorb8 a b) = N.lxor (b2n a) (b2n b).
Proof. unfold xorb8. rewrite b2n_n2b_mod. apply N.mod_small, lxor_lt8; apply b2n_lt. Qed.

Lemma xorb8_involutive a b : xorb8 (xorb8 a b) b = a.
Proof.
  apply b2n_inj. rewrite !b2n_xorb8.
  now rewrite N.lxor_assoc, N.lxor_nilpotent, N.lxor_0_r.
Qed.

Lemma xorb8_cancel_l p x : xorb8 p (xorb8 p x) = x.
Proof.
  apply b2n_inj. rewrite !b2n_xorb8.
  now rewrite <- N.lxor_assoc, N.lxor_nilpotent, N.lxor_0_l.
Qed.

Lemma xor_bytes_length a b : length (xor_bytes a b) = Nat.min (length a) (length b).
Proof. revert b. induction a as [|x a IH]; intros [|y b]; cbn; auto. Qed.

Lemma xor_bytes_involutive pad m :
  length m <= length pad -> xor_bytes pad (xor_bytes pad m) = m.
Proof.
  revert m. induction pad as [|p pad IH]; intros [|x m] H; cbn in *; try lia; auto.
  f_equal; [apply xorb8_cancel_l | apply IH; lia].
Qed.
