From Coq Require Import List Arith Lia.
Import ListNotations.

Section L.
  Context {A : Type}.
  Implicit Types l r : list A.

  Lemma firstn_app_exact' n l r : n = length l -> firstn n (l ++ r) = l.
  Proof. intros ->. rewrite firstn_app, Nat.sub_diag, firstn_all. apply app_nil_r. Qed.

  Lemma skipn_app_exact' n l r : n = length l -> skipn n (l ++ r) = r.
  Proof. intros ->. rewrite skipn_app, Nat.sub_diag, skipn_all. reflexivity. Qed.

  Lemma app_eq_len l1 l2 r1 r2 :
    length l1 = length l2 -> l1 ++ r1 = l2 ++ r2 -> l1 = l2 /\ r1 = r2.
  Proof.
    revert l2. induction l1 as [|x l1 IH]; intros [|y l2] Hl H; cbn in *; try discriminate.
    - auto.
    - injection H as -> H. destruct (IH l2) as [-> ->]; auto.
  Qed.

  Lemma split_firstn_skipn n l : l = firstn n l ++ skipn n l.
  Proof. symmetry. apply firstn_skipn. Qed.

  Lemma take_split l n : n <= length l -> l = firstn n l ++ skipn n l /\ length (firstn n l) = n.
  Proof. intros H. split; [apply split_firstn_skipn | now apply firstn_length_le]. Qed.

  Lemma skipn_skipn' n m l : skipn n (skipn m l) = skipn (m + n) l.
  Proof.
    revert l. induction m as [|m IH]; intros l; cbn; [reflexivity|].
    destruct l; [now rewrite skipn_nil | apply IH].
  Qed.

  (* a slice followed by what follows it: used from the right, it reassembles a string cut at absolute offsets *)
  Lemma slice_skipn n m l : firstn m (skipn n l) ++ skipn (n + m) l = skipn n l.
  Proof. rewrite <- skipn_skipn'. apply firstn_skipn. Qed.

  Lemma app_inv_len_tail l1 l2 r1 r2 :
    length r1 = length r2 -> l1 ++ r1 = l2 ++ r2 -> l1 = l2 /\ r1 = r2.
  Proof.
    intros Hr H.
    assert (Hl : length l1 = length l2).
    { apply (f_equal (@length A)) in H. rewrite !app_length in H. lia. }
    apply app_eq_len; assumption.
  Qed.

  Lemma nth_error_app_keep l r i x : nth_error l i = Some x -> nth_error (l ++ r) i = Some x.
  Proof. intros H. rewrite nth_error_app1; [exact H|]. apply nth_error_Some. congruence. Qed.

  Lemma Forall_snoc (P : A -> Prop) l x : Forall P l -> P x -> Forall P (l ++ [x]).
  Proof. intros Hl Hx. apply Forall_app. split; [exact Hl|]. constructor; [exact Hx|constructor]. Qed.

  Lemma Forall_nth_error {P : A -> Prop} {l i x} : Forall P l -> nth_error l i = Some x -> P x.
  Proof. intros H Hi. exact (proj1 (Forall_forall P l) H x (nth_error_In l i Hi)). Qed.
  Lemma list_ends l n : length l = S (S n) -> exists b0 mid bl, l = b0 :: mid ++ [bl] /\ length mid = n.
  Proof.
    destruct l as [|b0 rest]; [discriminate|]. intros [= Hl].
    destruct (exists_last (l := rest)) as (mid & bl & ->); [now intros ->|].
    rewrite app_length in Hl. cbn [length] in Hl. exists b0, mid, bl. split; [reflexivity | lia].
  Qed.
End L.
