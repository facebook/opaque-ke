(* C16, stability against an adversary: whoever serves the login and whatever password the client types, if the
   client's final step OPENS the envelope that was sealed at registration (same nonce, same tag) it returns that
   registration's export key - unless a collision of HMAC or of HKDF-Expand is exhibited.  (Theory/Oblivious.v has the
   case of equal randomized passwords; here the randomized password at login is arbitrary.)  The chain: an accepted
   tag under the login's auth key equals the stored tag under the registration's auth key, so the keys are equal or
   HMAC collides; the two auth keys are Expand(randomized password, nonce || "AuthKey") of the same length, so the
   randomized passwords are equal or Expand collides; equal randomized passwords and equal nonce give equal export keys. *)
From OKE Require Import Suite Messages Envelope Opaque.
From OKE Require Import Steps Laws Layers Bad KeySchedule ClientAccept.

Section ES.
  Context {E Sc Pk Sk : Type}.
  Variable CS : Suite E Sc Pk Sk.
  Hypothesis HL : HashLaws (hash CS).

  Theorem export_key_stable_against_any_server tape rp spk ids env cpk ek rest rp' spk' ids' kp ek' u s :
    envelope_seal CS tape rp spk ids = Ok (env, cpk, ek, rest) ->
    envelope_open CS env rp' spk' ids' = Ok (kp, ek', u, s) ->
    ek' = ek \/ BadS CS.
  Proof.
    intros Hs Ho.
    apply envelope_seal_Ok in Hs as (kp0 & u0 & s0 & ak & _ & _ & _ & _ & _ & _ & Hk & Ht).
    apply envelope_open_Ok in Ho as (ak' & _ & _ & _ & Hk' & Ht').
    apply envelope_keys_Ok in Hk as [Ha He]. apply envelope_keys_Ok in Hk' as [Ha' He'].
    pose proof (hkdf_expand_length HL Ha) as La. pose proof (hkdf_expand_length HL Ha') as La'.
    (* 1. equal tags: equal auth keys, or an HMAC collision *)
    rewrite Ht in Ht'.
    destruct (mac_inj (eq_trans La' (eq_sym La)) Ht') as [[-> _]|HB]; [|right; exact (BS_hash CS HB)].
    (* 2. equal auth keys: equal randomized passwords, or an Expand collision *)
    destruct (expand_inj CS Ha Ha') as [[<- _]|HB]; [left; congruence | now right].
  Qed.

  (* the same at the API: registration produced (upload, ek); ANY later successful client login - any server, any
     response, any password, any parameters - opened some envelope; if that envelope is the registration's, the login
     returned ek (or a collision is exhibited) *)
  Theorem login_export_key_is_the_registrations
          creg tape pw rr ids ksf upload ek spk rest clog pw' r ctx ids' ksf' fin sk ek' spk' dbg :
    client_registration_finish CS creg tape pw rr ids ksf = Ok (upload, ek, spk, rest) ->
    client_login_finish CS clog pw' r ctx ids' ksf' = Ok (fin, sk, ek', spk', dbg) ->
    exists rp' mk env kp u s,
      unmask_response CS mk (cr_masking_nonce r) (cr_masked r) = Ok (spk', env) /\
      envelope_open CS env rp' spk' ids' = Ok (kp, ek', u, s) /\
      (env = ru_envelope upload -> ek' = ek \/ BadS CS).
  Proof.
    intros Hreg Hacc.
    apply client_accepts_iff in Hacc as (rp' & mk & env & kp & u & s & pre & km2 & km3 & hs & _ & _ & _ & Hun & Hopen & _).
    exists rp', mk, env, kp, u, s. split; [exact Hun|]. split; [exact Hopen|]. intros ->.
    apply client_registration_finish_Ok in Hreg as (_ & rp & _ & _ & Hseal).
    exact (export_key_stable_against_any_server _ _ _ _ _ _ _ _ _ _ _ _ _ _ _ Hseal Hopen).
  Qed.
End ES.
